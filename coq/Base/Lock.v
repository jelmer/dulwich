(* Base/Lock.v — a lock taken with O_EXCL and released by rename or unlink, shared by any number of
   actors: it has at most one owner, whatever the actors do between taking and releasing it. *)
From Coq Require Import Arith.

(* l: who the lock file says holds the lock; h j: actor j is at a point of its program where it holds it *)
Definition owned_by (l : option nat) (h : nat -> bool) : Prop := forall j, h j = true <-> l = Some j.

Lemma owner_unique l h i j : owned_by l h -> h i = true -> h j = true -> i = j.
Proof. intros O A B. apply O in A. apply O in B. congruence. Qed.

Lemma unowned h : (forall j, h j = false) -> owned_by None h.
Proof. intros H j. rewrite H. split; discriminate. Qed.

(* what a step of actor i does to the lock and to its own holding it: nothing, or it takes the free lock,
   or it gives up the lock it holds *)
Inductive lock_move (i : nat) : option nat -> bool -> option nat -> bool -> Prop :=
| lock_kept l b : lock_move i l b l b
| lock_taken b : lock_move i None b (Some i) true
| lock_released l : lock_move i l true None false.

(* Each model has its own [upd f i a], the actors f with a in place of actor i.  The two lemmas are stated
   of its body, so that [apply] and [exact] take them for any of the models, by conversion. *)
Lemma upd_all {A} (P : nat -> A -> Prop) (f : nat -> A) i a :
  P i a -> (forall j, j <> i -> P j (f j)) -> forall j, P j (if Nat.eqb j i then a else f j).
Proof. intros Hi Ho j. destruct (Nat.eqb_spec j i) as [->|N]; auto. Qed.

Lemma owned_by_upd {A} (holds : A -> bool) l l' (f : nat -> A) i a :
  owned_by l (fun j => holds (f j)) -> lock_move i l (holds (f i)) l' (holds a) ->
  owned_by l' (fun j => holds (if Nat.eqb j i then a else f j)).
Proof.
  intros O M. remember (holds (f i)) as b eqn:Eb. remember (holds a) as b' eqn:Eb'.
  destruct M as [l b|b|l]; intros j; destruct (Nat.eqb_spec j i) as [->|N].
  - rewrite <- Eb', Eb. apply O.
  - apply O.
  - rewrite <- Eb'. split; reflexivity.
  - split; [intros X; apply O in X; discriminate|congruence].
  - rewrite <- Eb'. split; discriminate.
  - symmetry in Eb. apply O in Eb. split; [intros X; apply (O j) in X; congruence|discriminate].
Qed.

(* likewise of the body of [onat_eqb a b], by which RefCas and PackedRefs compare a ref's value with the expected one *)
Lemma onat_eqb_eq (a b : option nat) :
  match a, b with Some x, Some y => Nat.eqb x y | None, None => true | _, _ => false end = true <-> a = b.
Proof.
  destruct a, b; cbn; split; intros H; try discriminate; try reflexivity.
  - apply Nat.eqb_eq in H. subst. reflexivity.
  - inversion H. apply Nat.eqb_refl.
Qed.
