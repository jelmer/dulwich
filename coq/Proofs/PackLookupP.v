(* Proofs/PackLookupP.v — a lookup racing one maintenance run (packs are added, then packs and loose files
   deleted) does not answer "missing" for an object that exists throughout: an invariant on the reader's
   control state, kept by the steps of both sides *)
From DV Require Import ListFacts PackLookup.

Lemma order_ok_spec d order : order_ok d order = true ->
  (forall w, In w order -> In w (packs d)) /\ (forall w, In w (packs d) -> In w order).
Proof.
  unfold order_ok. rewrite andb_true_iff, !forallb_forall.
  intros [H1 H2]. split; intros w Hw; apply mem_nat_In; [exact (H1 w Hw)|exact (H2 w Hw)].
Qed.

Lemma has_new_false d r : has_new d r = false -> forall w, In w (packs d) -> In w (cache r).
Proof. intros H w Hw. apply mem_nat_In, negb_false_iff. exact (proj1 (existsb_false _ _) H w Hw). Qed.

Section Lookup.
Variable content : nat -> list nat.
Variable o : nat.
Notation has := (has content o).
Notation exists_o := (exists_o content o).
Notation opack_present := (opack_present content o).
Notation env_legal := (env_legal content o).
Notation rstep := (rstep content o).
Notation sys_step := (sys_step content o).

Lemma opack_present_spec d : opack_present d = true <-> exists w, In w (packs d) /\ has w = true.
Proof. apply existsb_exists. Qed.

Lemma opack_present_false d : opack_present d = false <-> forall w, In w (packs d) -> has w = false.
Proof. apply existsb_false. Qed.

Lemma exists_no_loose d : exists_o d = true -> loose d = false -> exists w, In w (packs d) /\ has w = true.
Proof. unfold PackLookup.exists_o. intros X L. rewrite L in X. apply opack_present_spec. exact X. Qed.

Lemma probe_cases d r order s att w todo dis resc : ctl r = Scan s att (w :: todo) dis resc ->
  let r' := rstep d r order in
  ctl r' = Found \/
  (has w = false /\ cache r' = cache r /\ ctl r' = Scan s att todo dis resc) \/
  (~ In w (packs d) /\ cache r' = rem w (cache r) /\ ctl r' = Scan s att todo true resc).
Proof.
  intros C. unfold PackLookup.rstep. rewrite C. cbv zeta. destruct (mem w (packs d)) eqn:Pr.
  - rewrite !orb_true_r. destruct (has w); cbn; auto.
  - apply mem_nat_notIn in Pr. rewrite !orb_false_r.
    destruct (mem w (iopen r)); cbn [negb]; [|auto]. destruct (has w); cbn [negb]; [|auto].
    destruct (mem w (dopen r)); auto.
Qed.

(* The argument: nothing is claimed of a call's first attempt (in the first call it runs on whatever was
   cached).  Every later attempt starts from a listing of the directory; while the maintenance process only
   adds, nothing of that listing can go, so a pack that disappears shows that deletion has begun.  The attempt
   after that starts from a listing taken during deletion, when nothing is added any more: a pack present that
   holds o is then in the listing, and if there is none, o is a loose file and stays one. *)
Definition scan_inv (d : disk) (c : list nat) (s : bool) (att : nat) (todo : list nat) (dis resc : bool) : Prop :=
  (forall w, In w c -> ~ In w todo -> has w = false) /\
  (s = true -> loose d = false /\ (dis = true \/ exists w, In w todo /\ has w = true)) /\
  (1 <= att -> deleting d = true \/ dis = false /\ forall w, In w todo -> In w (packs d)) /\
  (1 <= att -> resc = true) /\
  (2 <= att -> deleting d = true /\ forall w, In w (packs d) -> has w = true -> In w todo).

Definition ctl_inv (d : disk) (c : list nat) (p : pc) : Prop :=
  match p with
  | Scan s att todo dis resc => scan_inv d c s att todo dis resc
  | Loose => (forall w, In w c -> has w = false) \/ (deleting d = true /\ opack_present d = false)
  | Rescan2 => (forall w, In w c -> has w = false) /\ loose d = false
  | Found => True
  | Missing => False
  end.

Definition lookup_inv (d : disk) (r : reader) : Prop := exists_o d = true /\ ctl_inv d (cache r) (ctl r).

Lemma start_inv d c io do : exists_o d = true -> lookup_inv d (start c io do).
Proof.
  intros X. split; [exact X|]. cbn.
  split; [intros w Hw Hn; contradiction|]. split; [discriminate|]. split; [lia|]. split; lia.
Qed.

Lemma exists_env strict d e : exists_o d = true -> env_legal strict d e = true -> exists_o (env_apply d e) = true.
Proof.
  intros X L. destruct e as [w|w|]; cbn [PackLookup.env_legal env_apply] in *.
  - unfold PackLookup.exists_o, PackLookup.opack_present in *. cbn [loose packs].
    rewrite existsb_app, orb_assoc, X. reflexivity.
  - apply andb_true_iff in L. apply L.
  - apply andb_true_iff in L. apply L.
Qed.

Lemma env_facts d e : env_legal true d e = true ->
  (deleting d = true -> deleting (env_apply d e) = true) /\
  (deleting (env_apply d e) = false -> forall w, In w (packs d) -> In w (packs (env_apply d e))) /\
  (deleting d = true -> forall w, In w (packs (env_apply d e)) -> In w (packs d)) /\
  (loose d = false -> loose (env_apply d e) = false).
Proof.
  intros L. destruct e as [w|w|]; cbn [PackLookup.env_legal env_apply deleting packs loose] in *.
  - apply andb_true_iff in L. destruct L as [L1 L2].
    split; [tauto|]. split; [intros _ x Hx; apply in_or_app; left; exact Hx|].
    split; [intros D; rewrite D in L1; discriminate|tauto].
  - split; [reflexivity|]. split; [discriminate|].
    split; [intros _ x Hx; apply In_remove_nat in Hx; tauto|tauto].
  - split; [reflexivity|]. split; [discriminate|]. split; [tauto|reflexivity].
Qed.

Lemma env_apply_inv d r e : lookup_inv d r -> env_legal true d e = true -> lookup_inv (env_apply d e) r.
Proof.
  intros [X Ic] L. split; [apply (exists_env true); assumption|].
  destruct (env_facts d e L) as (F1 & F2 & F3 & F4).
  (* Found and Missing say nothing of the disk *)
  destruct (ctl r) as [s att todo dis resc| | | |]; try exact Ic.
  - (* Scan *) destruct Ic as (N & S2 & Fr & R & Q).
    split; [exact N|]. split; [|split; [|split; [exact R|]]].
    + intros Hs. split; [apply F4|]; apply (S2 Hs).
    + intros Hf. destruct (Fr Hf) as [D|[Hd P]]; [left; exact (F1 D)|].
      destruct (deleting (env_apply d e)); [left; reflexivity|]. right. split; [exact Hd|]. intros w Hw. apply (F2 eq_refl), P, Hw.
    + intros A2. destruct (Q A2) as [D P]. split; [exact (F1 D)|]. intros w Hw. apply P. apply (F3 D), Hw.
  - (* Loose *) destruct Ic as [Ic|[D P]]; [left; exact Ic|right]. split; [exact (F1 D)|].
    rewrite opack_present_false in *. intros w Hw. apply P, (F3 D), Hw.
  - (* Rescan2 *) destruct Ic as [Ic Lo]. split; [exact Ic|exact (F4 Lo)].
Qed.

Lemma inv_new_attempt d order s att resc :
  exists_o d = true -> order_ok d order = true ->
  (s = true -> loose d = false) -> (1 <= att -> resc = true) -> (2 <= att -> deleting d = true) ->
  scan_inv d order s att order false resc.
Proof.
  intros X O Lo R D2. destruct (order_ok_spec d order O) as [O1 O2].
  split; [intros w Hw Hn; contradiction|]. split; [|split; [|split; [exact R|]]].
  - intros Hs. split; [exact (Lo Hs)|]. right.
    destruct (exists_no_loose d X (Lo Hs)) as (w & Hw & Hh). exists w. auto.
  - intros _. right. auto.
  - intros A2. split; [exact (D2 A2)|]. intros w Hw _. exact (O2 w Hw).
Qed.

Lemma scan_step d c c' s att w todo dis dis' resc :
  scan_inv d c s att (w :: todo) dis resc ->
  (forall x, In x c' -> In x c) ->
  (has w = false /\ dis' = dis) \/ (~ In w (packs d) /\ dis' = true /\ ~ In w c') ->
  scan_inv d c' s att todo dis' resc.
Proof.
  intros (N & S2 & Fr & R & Q) Hc Hw.
  split; [|split; [|split; [|split; [exact R|]]]].
  - intros x Hx Hn. destruct (Nat.eq_dec x w) as [->|Hne].
    + destruct Hw as [[Hh _]|(_ & _ & Nc)]; [exact Hh|contradiction].
    + apply N; [apply Hc; exact Hx|intros [X|X]; [congruence|contradiction]].
  - intros Hs. destruct (S2 Hs) as [Lo E]. split; [exact Lo|].
    destruct Hw as [[Hh ->]|(_ & -> & _)]; [|left; reflexivity].
    destruct E as [E|(x & [<-|Hx] & Hhx)]; [left; exact E|congruence|right; exists x; auto].
  - intros Hf. destruct (Fr Hf) as [D|[Hd P]]; [left; exact D|right].
    destruct Hw as [[_ ->]|(Pr & _)]; [|destruct Pr; apply P; left; reflexivity].
    split; [exact Hd|]. intros x Hx. apply P. right. exact Hx.
  - intros A2. destruct (Q A2) as [D P]. split; [exact D|]. intros x Hx Hhx.
    destruct (P x Hx Hhx) as [<-|X]; [|exact X]. destruct Hw as [[Hh _]|(Pr & _)]; [congruence|contradiction].
Qed.

(* an attempt in which nothing disappeared ends the call: every pack cached was probed *)
Lemma scan_exit d c c' s att resc :
  scan_inv d c s att [] false resc -> (forall w, In w c' -> In w c) -> ctl_inv d c' (exit_miss s).
Proof.
  intros (N & S2 & _) Hc. destruct s; cbn.
  - destruct (S2 eq_refl) as [_ [E|(w & [] & _)]]. discriminate.
  - left. intros w Hw. apply N; [exact (Hc w Hw)|intros []].
Qed.

Lemma rstep_inv d r order :
  lookup_inv d r -> (needs_order d r = true -> order_ok d order = true) -> lookup_inv d (rstep d r order).
Proof.
  intros [X Ic] HO. split; [exact X|]. unfold needs_order in HO.
  destruct (ctl r) as [s att [|w todo] dis resc| | | |] eqn:C.
  - (* Scan, the attempt is over *) unfold PackLookup.rstep. rewrite C. destruct dis.
    + specialize (HO eq_refl). destruct Ic as (N & S2 & Fr & R & Q). cbn [rescan cache ctl].
      assert (D : 1 <= att -> deleting d = true).
      { intros A1. destruct (Fr A1) as [D|[E _]]; [exact D|discriminate]. }
      unfold next_attempt, max_attempts. destruct (S att <? 3) eqn:EA.
      * apply inv_new_attempt; try assumption; [apply S2|reflexivity|intros A2; apply D; lia].
      * (* the third attempt: no pack present holds o *)
        apply Nat.ltb_ge in EA. destruct Q as [Dd P]; [lia|].
        assert (P' : opack_present d = false).
        { apply opack_present_false. intros w Hw. destruct (has w) eqn:Hh; [destruct (P w Hw Hh)|reflexivity]. }
        destruct s; cbn; [|auto]. unfold PackLookup.exists_o in X. rewrite P', (proj1 (S2 eq_refl)) in X. discriminate.
    + destruct resc; cbn [negb].
      * apply (scan_exit d (cache r) _ _ _ _ Ic). auto.
      * specialize (HO eq_refl). destruct (has_new d r) eqn:HN; cbn [rescan cache ctl].
        -- destruct Ic as (N & S2 & Fr & R & Q).
           assert (att = 0) by (destruct att; [reflexivity|discriminate R; lia]). subst att.
           apply inv_new_attempt; try assumption; [apply S2|reflexivity|lia].
        -- apply (scan_exit d (cache r) order _ _ _ Ic).
           intros w Hw. apply (has_new_false d r HN), (order_ok_spec d order HO), Hw.
  - (* Scan, the next pack is probed *)
    destruct (probe_cases d r order _ _ _ _ _ _ C) as [F|[(Hh & Hc & C')|(Pr & Hc & C')]].
    + rewrite F. exact I.
    + rewrite C', Hc. apply (scan_step d (cache r) _ _ _ w _ dis _ _ Ic); auto.
    + rewrite C', Hc. apply (scan_step d (cache r) _ _ _ w _ dis _ _ Ic).
      * intros x Hx. apply In_remove_nat in Hx. apply Hx.
      * right. split; [exact Pr|]. split; [reflexivity|]. intros Y. apply In_remove_nat in Y. tauto.
  - (* Loose *) unfold PackLookup.rstep. rewrite C. cbn [with_ctl cache ctl]. destruct (loose d) eqn:Lo; [exact I|].
    destruct Ic as [Ic|[_ P]]; [split; [exact Ic|exact Lo]|]. unfold PackLookup.exists_o in X. rewrite Lo, P in X. discriminate.
  - (* Rescan2 *) unfold PackLookup.rstep. rewrite C. destruct Ic as [NC Lo]. specialize (HO eq_refl).
    destruct (has_new d r) eqn:HN; cbn [rescan cache ctl].
    + apply inv_new_attempt; try assumption; [auto|lia|lia].
    + destruct (exists_no_loose d X Lo) as (w & Hw & Hh).
      rewrite (NC w (has_new_false d r HN w Hw)) in Hh. discriminate.
  - (* Found *) unfold PackLookup.rstep. rewrite C, C. exact Ic.
  - (* Missing *) unfold PackLookup.rstep. rewrite C, C. exact Ic.
Qed.

Lemma run_inv evs : forall d r bad, lookup_inv d r ->
  let '(d', r', _) := fold_left (sys_step true) evs (d, r, bad) in lookup_inv d' r'.
Proof.
  intros d r bad. apply (fold_left_inv (sys_step true) (fun st => let '(d', r', _) := st in lookup_inv d' r') evs) with (s := (d, r, bad)).
  intros [[d1 r1] b1] ev _ Hi. destruct ev as [e|order]; cbn [PackLookup.sys_step].
  - destruct (env_legal true d1 e) eqn:L; [apply env_apply_inv; assumption|exact Hi].
  - destruct (needs_order d1 r1) eqn:Hn; cbn [andb]; [|apply rstep_inv; [exact Hi|congruence]].
    destruct (order_ok d1 order) eqn:O; [apply rstep_inv; auto|exact Hi].
Qed.

End Lookup.

(* packs: 1 holds o (= 0), 2 holds another object, 10 and 11 hold both; 9 is a pack the reader still has
   cached although it was deleted earlier.  Two repacks overlap one lookup: the first adds 10 and deletes
   1 and 2, the second adds 11 and deletes 10.  Every step keeps a copy of o; that the lookup answers "missing"
   all the same is Props/C10.v lookup_during_two_repacks_refuted. *)
Definition ex_content (w : nat) : list nat :=
  match w with 1 => [0] | 2 => [5] | 10 => [0; 5] | 11 => [0; 5] | _ => [] end.
Definition ex_disk : disk := {| packs := [1; 2]; loose := false; deleting := false |}.
Definition ex_two_repacks : list event :=
  [EvRead []; EvRead [1; 2];
   EvEnv (EAdd 10); EvEnv (EDelPack 1); EvEnv (EDelPack 2);
   EvRead []; EvRead []; EvRead [10];
   EvEnv (EAdd 11); EvEnv (EDelPack 10);
   EvRead []; EvRead [11]; EvRead []; EvRead [11]].

(* under the discipline the same lookup, overlapping the first repack, finds the object *)
Example ex_one_repack :
  let '(_, r', bad) := run ex_content 0 true ex_disk (start [9] [] [])
                           [EvRead []; EvRead [1; 2]; EvEnv (EAdd 10); EvEnv (EDelPack 1); EvEnv (EDelPack 2);
                            EvRead []; EvRead []; EvRead [10]; EvRead []] in
  ctl r' = Found /\ bad = false.
Proof. vm_compute. auto. Qed.
