(* Proofs/StatusSessionP.v — every operation of a session that is not a racy write keeps the stat-cache
   discipline (Faithful), and under it porcelain.status says exactly how HEAD, index and work tree differ *)
From DV Require Import ListFacts Status StatusP StatusSession.

(* the stat-cache discipline as an invariant of the session: an index entry whose
   recorded signature equals what lstat gives now describes the content that is there *)
Definition Faithful (s : st) : Prop :=
  forall p x y, ix s p = Some x -> wt s p = Some y -> sig_faithful x y.

(* what the invariant asks of an operation ("no racy writes"): a write that leaves
   the signature recorded in the index unchanged left the content unchanged, and
   the synthetic signature unstage records is not the one the file has unless the
   file holds HEAD's content *)
Definition ok_op (s : st) (o : op) : Prop :=
  match o with
  | OWrite p e sg => forall x, ix s p = Some x -> sg = i_sig x -> e_id e = e_id (i_entry x)
  | OUnstage p sg => forall e y, hd s p = Some e -> wt s p = Some y -> w_isdir y = false -> w_sig y = sg ->
                                 e_id (w_entry y) = e_id e
  | _ => True
  end.

Fixpoint ok_run (fm : bool) (s : st) (ops : list op) : Prop :=
  match ops with
  | [] => True
  | o :: r => ok_op s o /\ ok_run fm (step fm s o) r
  end.

Lemma upd_same {A} (f : path -> option A) p v : upd f p v p = v.
Proof. unfold upd. rewrite Nat.eqb_refl. reflexivity. Qed.

Lemma upd_other {A} (f : path -> option A) p v q : q <> p -> upd f p v q = f q.
Proof. intros H. unfold upd. destruct (Nat.eqb_spec q p); [contradiction|reflexivity]. Qed.

(* Faithful speaks of each path by itself: an edit at p has to be checked at p only *)
Lemma faithful_upd_wt h i w p y' : Faithful {| hd := h; ix := i; wt := w |} ->
  (forall x y, i p = Some x -> y' = Some y -> sig_faithful x y) ->
  Faithful {| hd := h; ix := i; wt := upd w p y' |}.
Proof.
  intros F H q. cbn [ix wt]. unfold upd. destruct (Nat.eqb_spec q p) as [->|_]; [exact H|exact (F q)].
Qed.

Lemma faithful_upd_ix h i w p x' : Faithful {| hd := h; ix := i; wt := w |} ->
  (forall x y, x' = Some x -> w p = Some y -> sig_faithful x y) ->
  Faithful {| hd := h; ix := upd i p x'; wt := w |}.
Proof.
  intros F H q. cbn [ix wt]. unfold upd. destruct (Nat.eqb_spec q p) as [->|_]; [exact H|exact (F q)].
Qed.

Lemma faithful_stage1 i w hd0 p :
  Faithful {| hd := hd0; ix := i; wt := w |} -> Faithful {| hd := hd0; ix := stage1 i w p; wt := w |}.
Proof.
  intros F. unfold stage1. destruct (w p) as [z|] eqn:Ew; [destruct (w_isdir z)|]; apply faithful_upd_ix; try exact F; try discriminate.
  intros x y Hx Hy _ _. rewrite Ew in Hy. inversion Hx; subst. inversion Hy; subst. reflexivity.
Qed.

Lemma faithful_stage_all fm w hd0 : forall ps i,
  Faithful {| hd := hd0; ix := i; wt := w |} ->
  Faithful {| hd := hd0; ix := fold_left (stage_dirty fm w) ps i; wt := w |}.
Proof.
  intros ps. apply (fold_left_inv (stage_dirty fm w) (fun i => Faithful {| hd := hd0; ix := i; wt := w |})).
  intros i' p _ F. unfold stage_dirty. destruct (dirty fm i' w p); [apply faithful_stage1|]; exact F.
Qed.

Lemma step_faithful fm s o : Faithful s -> ok_op s o -> Faithful (step fm s o).
Proof.
  intros F Hok. destruct s as [h i w]. destruct o as [p e sg|p|p|p|ps|p|p sg]; cbn [step hd ix wt] in *.
  - apply faithful_upd_wt; [exact F|]. intros x y Hx Hy _ Hs. inversion Hy; subst. cbn in *. exact (Hok x Hx Hs).
  - apply faithful_upd_wt; [exact F|]. intros x y _ Hy Hd. inversion Hy; subst. discriminate.
  - apply faithful_upd_wt; [exact F|discriminate].
  - apply faithful_stage1. exact F.
  - apply faithful_stage_all. exact F.
  - apply faithful_upd_ix; [exact F|discriminate].
  - apply faithful_upd_ix; [exact F|]. intros x y Hx Hy Hd Hs.
    destruct (h p) as [e|] eqn:Eh; [|discriminate]. inversion Hx; subst. cbn in *. exact (Hok e y Eh Hy Hd Hs).
Qed.

Lemma run_faithful fm : forall ops s, Faithful s -> ok_run fm s ops -> Faithful (run fm s ops).
Proof.
  induction ops as [|o ops IH]; intros s F H; [exact F|].
  destruct H as [H1 H2]. unfold run. cbn [fold_left]. apply IH; [apply step_faithful; assumption|exact H2].
Qed.

Lemma entry_eqb_spec a b : entry_eqb a b = true <-> a = b.
Proof.
  unfold entry_eqb. destruct a as [m1 i1], b as [m2 i2]. cbn. rewrite andb_true_iff, !Z.eqb_eq.
  split; [intros [-> ->]; reflexivity|intros H; inversion H; auto].
Qed.

Lemma staged_exact s p : staged s p = true <-> hd s p <> index_tree (ix s) p.
Proof.
  unfold staged, staged_add, staged_delete, staged_modify, index_tree.
  destruct (hd s p) as [a|], (ix s p) as [b|]; cbn.
  - rewrite negb_true_iff, <- not_true_iff_false, entry_eqb_spec. split; congruence.
  - split; [discriminate|reflexivity].
  - split; [discriminate|reflexivity].
  - split; [discriminate|intros H; destruct H; reflexivity].
Qed.

Lemma status_exact fm s : Faithful s -> forall p,
    (staged s p = true <-> hd s p <> index_tree (ix s) p) /\
    st_unstaged fm s p = match ix s p with Some x => differs fm x (wt s p) | None => false end /\
    (st_untracked s p = true <-> ix s p = None /\ exists y, wt s p = Some y /\ w_isdir y = false).
Proof.
  intros Fs p. split; [apply staged_exact|]. split.
  - unfold st_unstaged, unstaged. destruct (ix s p) as [x|] eqn:Ex; [|reflexivity].
    apply check_entry_exact. intros y Hy. exact (Fs p x y Ex Hy).
  - unfold st_untracked, untracked. split.
    + destruct (ix s p), (wt s p) as [y|]; try discriminate. rewrite negb_true_iff. eauto.
    + intros [-> (y & -> & ->)]. reflexivity.
Qed.

(* a concrete session: modify, stage, modify again, unstage *)
Example ex_session :
  let t : tree := fun p => match p with O => Some {| e_mode := 33188; e_id := 1 |} | _ => None end in
  let s0 := after_checkout t (fun _ => 7) in
  let ops := [OWrite 0%nat {| e_mode := 33188; e_id := 2 |} 8; OStage 0%nat; OWrite 1%nat {| e_mode := 33188; e_id := 5 |} 9; OUnstage 0%nat 3] in
  ok_run true s0 ops /\
  let s := run true s0 ops in
  staged s 0%nat = false /\ st_unstaged true s 0%nat = true /\ st_untracked s 1%nat = true /\ st_untracked s 0%nat = false.
Proof.
  cbn. repeat split; try reflexivity.
  - (* the first write: the new signature 8 is not the recorded 7 *)
    intros x Hx Hs. inversion Hx; subst. discriminate Hs.
  - (* the second write: path 1 has no index entry *) intros x Hx. discriminate Hx.
  - (* unstage: the synthetic signature 3 is not the file's 8 *)
    intros e y He Hy Hd Hs. inversion He; subst. inversion Hy; subst. discriminate Hs.
Qed.
