(* Base/ListFacts.v — list facts that Coq 8.16's List.v lacks and that several
   proof files need.  Stdlib only; opens no scope, sets no option. *)
From Coq Require Import List Bool PeanoNat.
Import ListNotations.

Lemma In_firstn {A} n (l : list A) x : In x (firstn n l) -> In x l.
Proof. intros H. rewrite <- (firstn_skipn n l). apply in_or_app. left. exact H. Qed.

Lemma In_skipn {A} n (l : list A) x : In x (skipn n l) -> In x l.
Proof. intros H. rewrite <- (firstn_skipn n l). apply in_or_app. right. exact H. Qed.

Lemma Forall_firstn {A} (P : A -> Prop) n l : Forall P l -> Forall P (firstn n l).
Proof. rewrite !Forall_forall. intros H x Hx. exact (H x (In_firstn n l x Hx)). Qed.

Lemma Forall_skipn {A} (P : A -> Prop) n l : Forall P l -> Forall P (skipn n l).
Proof. rewrite !Forall_forall. intros H x Hx. exact (H x (In_skipn n l x Hx)). Qed.

Lemma firstn_plus {A} (n m : nat) (l : list A) :
  firstn (n + m) l = firstn n l ++ firstn m (skipn n l).
Proof.
  revert l; induction n as [|n IH]; intros l; [reflexivity|].
  destruct l as [|x l]; [cbn; rewrite firstn_nil; reflexivity|].
  cbn [Nat.add firstn skipn app]. rewrite IH. reflexivity.
Qed.

Lemma skipn_plus {A} (n m : nat) (l : list A) : skipn (n + m) l = skipn m (skipn n l).
Proof.
  revert l; induction n as [|n IH]; intros l; [reflexivity|].
  destruct l as [|x l]; [cbn; rewrite skipn_nil; reflexivity|].
  cbn [Nat.add skipn]. apply IH.
Qed.

Lemma firstn_app_last {A} (a : list A) x k : firstn k (a ++ [x]) = firstn k a \/ firstn k (a ++ [x]) = a ++ [x].
Proof.
  destruct (Nat.le_gt_cases k (length a)) as [H|H].
  - left. rewrite firstn_app. replace (k - length a) with 0 by (apply eq_sym, Nat.sub_0_le; exact H). cbn. apply app_nil_r.
  - right. apply firstn_all2. rewrite app_length, Nat.add_1_r. exact H.
Qed.

Lemma Forall_forallb {A} (P : A -> Prop) (f : A -> bool) l :
  (forall x, P x -> f x = true) -> Forall P l -> forallb f l = true.
Proof. rewrite Forall_forall, forallb_forall. auto. Qed.

Lemma forallb_notin {A} (f : A -> bool) l c : forallb f l = true -> f c = false -> ~ In c l.
Proof. intros F N I. rewrite forallb_forall in F. apply F in I. congruence. Qed.

Lemma existsb_false {A} (f : A -> bool) l : existsb f l = false <-> forall x, In x l -> f x = false.
Proof.
  rewrite <- not_true_iff_false, existsb_exists. split.
  - intros N x Hx. destruct (f x) eqn:E; [|reflexivity]. destruct N. eauto.
  - intros H (x & Hx & E). rewrite (H x Hx) in E. discriminate.
Qed.

Lemma flat_map_map_comm {A B} (g : A -> list B) (h : A -> A) (k : B -> B) (l : list A) :
  (forall x, g (h x) = map k (g x)) -> flat_map g (map h l) = map k (flat_map g l).
Proof.
  intros H. induction l as [|x l IH]; [reflexivity|]. cbn [map flat_map]. rewrite map_app, H, IH. reflexivity.
Qed.

Lemma Forall2_map_r {A B} (R : A -> B -> Prop) (f : A -> B) l :
  (forall x, In x l -> R x (f x)) -> Forall2 R l (map f l).
Proof.
  induction l as [|x l IH]; intros H; cbn [map]; constructor; [apply H; left; reflexivity|].
  apply IH. intros y Hy. apply H. right. exact Hy.
Qed.

(* l has a last element, and it satisfies P *)
Definition ends {A} (P : A -> Prop) (l : list A) : Prop := exists a x, l = a ++ [x] /\ P x.

Lemma ends_app {A} (P : A -> Prop) a b : ends P b -> ends P (a ++ b).
Proof. intros (b' & x & -> & H). exists (a ++ b'), x. rewrite app_assoc. auto. Qed.

Lemma ends_all {A} (P : A -> Prop) l : l <> [] -> (forall x, In x l -> P x) -> ends P l.
Proof.
  intros NE H. destruct (exists_last NE) as (a & x & ->). exists a, x. split; [reflexivity|].
  apply H, in_or_app. right. left. reflexivity.
Qed.

(* taking out the element at position i: the left side of the second equation is what the models call [remove_nth i l] *)
Lemma nth_error_split_at {A} i (l : list A) c : nth_error l i = Some c ->
  exists l1 l2, l = l1 ++ c :: l2 /\ firstn i l ++ skipn (S i) l = l1 ++ l2.
Proof.
  intros H. exists (firstn i l), (skipn (S i) l). split; [|reflexivity].
  revert l H. induction i as [|i IH]; intros [|y l] H; try discriminate.
  - injection H as ->. reflexivity.
  - cbn [firstn skipn app]. f_equal. exact (IH l H).
Qed.

Lemma nth_map_cases {A B} (f : A -> B) l d i :
  (exists a, nth_error l i = Some a /\ nth i (map f l) d = f a) \/ nth i (map f l) d = d.
Proof. revert i. induction l as [|a l IH]; intros [|i]; cbn; eauto. Qed.

Lemma NoDup_app_iff {A} (a b : list A) :
  NoDup (a ++ b) <-> NoDup a /\ NoDup b /\ forall x, In x a -> ~ In x b.
Proof.
  induction a as [|y a IH]; cbn [app].
  - split; [intros H; repeat split; [constructor|exact H|intros x []]|intros (_ & H & _); exact H].
  - rewrite !NoDup_cons_iff, IH, in_app_iff. split.
    + intros (N & Na & Nb & D). split; [tauto|]. split; [exact Nb|].
      intros x [<-|Hx]; [tauto|apply D; exact Hx].
    + intros ((N & Na) & Nb & D). split.
      * intros [H|H]; [exact (N H)|exact (D y (or_introl eq_refl) H)].
      * split; [exact Na|]. split; [exact Nb|]. intros x Hx. apply D. right. exact Hx.
Qed.

Lemma NoDup_app {A} (a b : list A) :
  NoDup a -> NoDup b -> (forall x, In x a -> ~ In x b) -> NoDup (a ++ b).
Proof. intros. apply NoDup_app_iff. auto. Qed.

Lemma NoDup_singleton {A} (a : A) l : NoDup l -> (forall x, In x l <-> x = a) -> l = [a].
Proof.
  intros ND H. destruct l as [|x [|y l]].
  - destruct (proj2 (H a) eq_refl).
  - rewrite (proj1 (H x) (or_introl eq_refl)). reflexivity.
  - exfalso. inversion ND as [|? ? Hnin _]. apply Hnin. left.
    rewrite (proj1 (H x) (or_introl eq_refl)). apply H. right. left. reflexivity.
Qed.

Lemma NoDup_middle {A} (x : A) a b : NoDup (x :: a ++ b) <-> NoDup (a ++ x :: b).
Proof. rewrite (NoDup_Add (Add_app x a b)), NoDup_cons_iff. tauto. Qed.

Section Eqb.
  Context {A : Type} (eqb : A -> A -> bool).
  Hypothesis eqb_eq : forall a b, eqb a b = true <-> a = b.

  Lemma existsb_eqb_In x l : existsb (eqb x) l = true <-> In x l.
  Proof.
    rewrite existsb_exists. split.
    - intros (y & Hy & E). apply eqb_eq in E. subst. exact Hy.
    - intros H. exists x. split; [exact H|apply eqb_eq; reflexivity].
  Qed.

  (* filter (fun z => negb (eqb (g z) k)) : drop the elements whose key is k *)
  Lemma filter_neqb_In {B} (g : B -> A) k l y :
    In y (filter (fun z => negb (eqb (g z) k)) l) <-> In y l /\ g y <> k.
  Proof.
    rewrite filter_In, negb_true_iff. split; intros [H E]; split; auto.
    - intros X. apply eqb_eq in X. congruence.
    - destruct (eqb (g y) k) eqn:X; [apply eqb_eq in X; contradiction|reflexivity].
  Qed.
End Eqb.

(* the two instances over nat that the graph models spell out *)
Lemma mem_nat_In x l : existsb (Nat.eqb x) l = true <-> In x l.
Proof. exact (existsb_eqb_In Nat.eqb Nat.eqb_eq x l). Qed.

Lemma In_remove_nat x l y : In y (filter (fun z => negb (Nat.eqb z x)) l) <-> In y l /\ y <> x.
Proof. exact (filter_neqb_In Nat.eqb Nat.eqb_eq (fun z => z) x l y). Qed.

Lemma mem_nat_notIn x l : existsb (Nat.eqb x) l = false <-> ~ In x l.
Proof. rewrite <- mem_nat_In. symmetry. apply not_true_iff_false. Qed.

Lemma remove_nat_notIn x l : ~ In x l -> filter (fun z => negb (Nat.eqb z x)) l = l.
Proof.
  induction l as [|y l IH]; cbn [filter In]; intros N; [reflexivity|].
  destruct (Nat.eqb_spec y x) as [->|_]; cbn [negb]; [tauto|]. f_equal. apply IH. tauto.
Qed.

Lemma NoDup_bounded_length n (l : list nat) : NoDup l -> (forall x, In x l -> x < n) -> length l <= n.
Proof.
  intros N B. rewrite <- (seq_length n 0). apply NoDup_incl_length; [exact N|].
  intros x Hx. apply in_seq. split; [apply Nat.le_0_l|exact (B x Hx)].
Qed.

Section Fold.
  Context {S X : Type} (f : S -> X -> S).

  Lemma fold_left_inv (P : S -> Prop) l :
    (forall s x, In x l -> P s -> P (f s x)) -> forall s, P s -> P (fold_left f l s).
  Proof.
    induction l as [|x l IH]; intros Hs s Ps; [exact Ps|].
    cbn [fold_left]. apply IH; [intros s' y Hy; apply Hs; right; exact Hy|].
    apply Hs; [left; reflexivity|exact Ps].
  Qed.

  (* ... and so at every prefix of the run: what a crash can leave behind *)
  Lemma fold_left_prefix_inv (P : S -> Prop) l :
    (forall s x, In x l -> P s -> P (f s x)) -> forall s, P s ->
    forall k, P (fold_left f (firstn k l) s).
  Proof.
    intros Hs s Ps k. apply fold_left_inv; [|exact Ps].
    intros s' x Hx. apply Hs. exact (In_firstn k l x Hx).
  Qed.

  (* an invariant indexed by what is still to come *)
  Lemma fold_left_inv_rest (P : list X -> S -> Prop) :
    (forall x r s, P (x :: r) s -> P r (f s x)) -> forall l s, P l s -> P [] (fold_left f l s).
  Proof.
    intros Hs. induction l as [|x l IH]; intros s Ps; [exact Ps|].
    cbn [fold_left]. apply IH, Hs, Ps.
  Qed.
End Fold.
