(* Props/C16.v — ref names and ref backends. *)
From DV Require Import RefName RefNameP.

(* dulwich's check_ref_format and git's check_refname_format (refs.c) agree on
   every NUL-free byte string of any length *)
Theorem refname_eq_git : forall s,
  Forall (fun b => 1 <= b <= 255) s -> check_ref_format s = git_check_refname_format s.
Proof. exact check_ref_format_eq_git. Qed.
Print Assumptions refname_eq_git.

(* ---------- files backend: loose + packed refs behave like one flat map ---------- *)
From DV Require Import Refs RefsP.

(* packing refs (all or tags only) changes no visible ref, for every store state *)
Theorem pack_refs_unobservable : forall d all q, dread (pack_refs d all) q = dread d q.
Proof.
  intros d all q. unfold pack_refs. apply (fold_left_inv (pack_one all) (fun d' => dread d' q = dread d q)); [|reflexivity].
  intros d' n _ <-. apply pack_one_dread.
Qed.
Print Assumptions pack_refs_unobservable.

(* ... nor what any name resolves to through symbolic refs *)
Theorem pack_refs_getitem : forall d all n, getitem (pack_refs d all) n = getitem d n.
Proof. intros d all n. apply getitem_ext. intros q. apply pack_refs_unobservable. Qed.
Print Assumptions pack_refs_getitem.

(* set_if_equals: success means exactly the resolved name now holds the value
   and nothing else changed (and the old value matched if one was named); a
   False return means the named old value did not match and nothing changed;
   an exception means a file/directory collision and nothing changed *)
Theorem set_if_equals_contract : forall d n old new d' r,
  set_if_equals d n old new = (d', r) ->
  let real := realname d n in
  match r with
  | RTrue => (forall q, dread d' q = upd d real (Some (Sha new)) q) /\
             (forall o, old = Some o -> orig_is d real o = true)
  | RFalse => d' = d /\ exists o, old = Some o /\ orig_is d real o = false
  | RExc => d' = d /\ (pre_collide real d = true \/ post_collide real d = true)
  end.
Proof.
  intros d n old new d' r. unfold set_if_equals. cbv zeta. set (real := realname d n). pose proof (old_matches d real old) as Hold.
  destruct (pre_collide real d); [intros H; inversion H; subst; auto|].
  destruct (match old with Some o => negb (orig_is d real o) | None => false end); [intros H; inversion H; subst; auto|].
  destruct (match dread d real with Some v => rval_eqb v (Sha new) | None => false end) eqn:Es.
  - intros H; inversion H; subst. split; [|exact Hold]. intros q. symmetry. apply upd_noop, already_there, Es.
  - destruct (post_collide real d); intros H; inversion H; subst; [auto|].
    split; [apply dread_write|exact Hold].
Qed.
Print Assumptions set_if_equals_contract.

Theorem set_unconditional_takes_effect : forall d n new,
  pre_collide (realname d n) d = false -> post_collide (realname d n) d = false ->
  snd (set_if_equals d n None new) = RTrue.
Proof.
  intros d n new H1 H2. unfold set_if_equals. cbv zeta. rewrite H1, H2.
  destruct (match dread d (realname d n) with Some v => rval_eqb v (Sha new) | None => false end); reflexivity.
Qed.
Print Assumptions set_unconditional_takes_effect.

Theorem remove_if_equals_contract : forall d n old d' r,
  remove_if_equals d n old = (d', r) ->
  match r with
  | RTrue => (forall q, dread d' q = upd d n None q) /\ (forall o, old = Some o -> orig_is d n o = true)
  | RFalse => d' = d /\ exists o, old = Some o /\ orig_is d n o = false
  | RExc => d' = d /\ (loose_ancestor n d = true \/ post_collide n d = true)
  end.
Proof.
  intros d n old d' r. unfold remove_if_equals. pose proof (old_matches d n old) as Hold.
  destruct (loose_ancestor n d); [intros H; inversion H; subst; auto|].
  destruct (match old with Some o => negb (orig_is d n o) | None => false end); [intros H; inversion H; subst; auto|].
  destruct (post_collide n d); intros H; inversion H; subst; [auto|].
  split; [apply dread_delete|exact Hold].
Qed.
Print Assumptions remove_if_equals_contract.

(* a deleted ref does not come back from packed-refs *)
Theorem removed_ref_is_gone : forall d n old d',
  remove_if_equals d n old = (d', RTrue) -> dread d' n = None /\ getitem d' n = None.
Proof.
  intros d n old d' H. apply remove_if_equals_contract in H. destruct H as [H _].
  assert (E : dread d' n = None) by (rewrite H; unfold upd; rewrite bytes_beq_refl; reflexivity).
  split; [exact E|]. unfold getitem, follow. cbn [follow_f]. rewrite E. reflexivity.
Qed.
Print Assumptions removed_ref_is_gone.

Theorem add_if_new_contract : forall d n v d' r,
  add_if_new d n v = (d', r) ->
  match r with
  | RTrue => exists real, dread d real = None /\ forall q, dread d' q = upd d real (Some (Sha v)) q
  | _ => d' = d
  end.
Proof.
  intros d n v d' r H. apply add_if_new_spec in H. destruct r; [exists (realname d n)|..]; exact H.
Qed.
Print Assumptions add_if_new_contract.

Theorem set_symbolic_ref_contract : forall d n t d' r,
  set_symbolic_ref d n t = (d', r) ->
  match r with
  | RTrue => forall q, dread d' q = upd d n (Some (Sym t)) q
  | _ => d' = d
  end.
Proof.
  intros d n t d' r. unfold set_symbolic_ref. destruct (pre_collide n d); [intros H; inversion H; subst; reflexivity|].
  destruct (post_collide n d); intros H; inversion H; subst; [reflexivity|]. apply dread_write.
Qed.
Print Assumptions set_symbolic_ref_contract.

(* ---------- the packed-refs file as text (Model/PackedFile.v) ---------- *)
From DV Require Import PackedFile PackedFileP.

(* any list of refs with well-formed names, hex ids and hex peeled values,
   written with the header as the object store always does, is read back by
   get_packed_refs exactly: same names, ids, peeled values, order *)
Theorem packed_refs_file_roundtrip : forall l, Forall (fun r => valid_pref r = true) l ->
  read_packed (write_packed true l) = Some l.
Proof. exact roundtrip_peeled. Qed.
Print Assumptions packed_refs_file_roundtrip.

(* written without peeled values (no header) a non-empty list reads back with
   every peeled value absent *)
Theorem packed_refs_file_roundtrip_plain : forall l, Forall (fun r => valid_pref r = true) l -> l <> [] ->
  read_packed (write_packed false l) = Some (map drop_peeled l).
Proof. exact roundtrip_plain. Qed.
Print Assumptions packed_refs_file_roundtrip_plain.

Example an_empty_file_is_not_readable : read_packed (write_packed false []) = None.
Proof. reflexivity. Qed.
