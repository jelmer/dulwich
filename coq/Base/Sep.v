(* Base/Sep.v — cutting a byte string at a separator byte.  The models spell the
   same three loops out with the separator fixed (LF, SP, NUL, '/', '\'):
   split at every separator (bytes.split), split keeping the line ends
   (iterating a file), split at the first separator (split(sep, 1), index).
   Each loop here is the model's loop with the separator a variable, so the
   tokenisers of Objects, PackedFile and ReportStatus are convertible with their
   instances and the lemmas apply to them as they stand; Caps.split_on_f and
   PathSafe.split_on take the separator as an argument of the fix and are shown
   equal to Sep.split by a one-line induction (CapsP, PathSafeP).
   "a has no separator" is  ~ In c a  throughout.
   Require this file without Import and write Sep.split, Sep.lines, Sep.split1:
   the short names are also those of List.split and of several model functions. *)
From DV Require Import Bytes.

(* Every such loop pushes a byte that is not its separator onto a reversed
   accumulator, so it runs through a separator-free stretch in one go. *)
Lemma scan_run {R} (f : bytes -> bytes -> R) c :
  (forall x r cur, x <> c -> f (x :: r) cur = f r (x :: cur)) ->
  forall a rest cur, ~ In c a -> f (a ++ rest) cur = f rest (rev a ++ cur).
Proof.
  intros step. induction a as [|x a IH]; intros rest cur N; [reflexivity|].
  apply not_in_cons in N. destruct N as [Nx Na]. cbn [app rev].
  rewrite step, IH, <- app_assoc by auto. reflexivity.
Qed.

Section Sep.
Variable c : Z.

Lemma nosep_forallb a : forallb (fun b => negb (b =? c)) a = true -> ~ In c a.
Proof. intros H. apply (forallb_notin _ _ _ H). rewrite Z.eqb_refl. reflexivity. Qed.

Fixpoint split (l cur : bytes) : list bytes :=
  match l with
  | [] => [rev cur]
  | x :: r => if x =? c then rev cur :: split r [] else split r (x :: cur)
  end.

Lemma split_run : forall a rest cur, ~ In c a -> split (a ++ rest) cur = split rest (rev a ++ cur).
Proof. apply scan_run. intros x r cur N. cbn [split]. apply Z.eqb_neq in N. rewrite N. reflexivity. Qed.

Lemma split_last a cur : ~ In c a -> split a cur = [rev cur ++ a].
Proof.
  intros H. rewrite <- (app_nil_r a) at 1. rewrite split_run by exact H.
  cbn [split]. rewrite rev_app_distr, rev_involutive. reflexivity.
Qed.

Lemma split_cons a rest cur : ~ In c a -> split (a ++ c :: rest) cur = (rev cur ++ a) :: split rest [].
Proof.
  intros H. rewrite split_run by exact H. cbn [split]. rewrite Z.eqb_refl, rev_app_distr, rev_involutive.
  reflexivity.
Qed.

Lemma split_nonempty : forall l cur, split l cur <> [].
Proof. induction l as [|x l IH]; intros cur; cbn [split]; [discriminate|]. destruct (x =? c); [discriminate|apply IH]. Qed.

(* the fields hold no separator, and joined again they give the input back *)
Lemma split_fields : forall l cur, ~ In c cur -> Forall (fun f => ~ In c f) (split l cur).
Proof.
  induction l as [|x l IH]; intros cur H; cbn [split].
  - constructor; [rewrite <- in_rev; exact H|constructor].
  - destruct (x =? c) eqn:E.
    + constructor; [rewrite <- in_rev; exact H|]. apply IH. intros [].
    + apply IH. intros [->|I]; [rewrite Z.eqb_refl in E; discriminate|exact (H I)].
Qed.

Lemma split_concat : forall l cur, concat (map (fun f => f ++ [c]) (split l cur)) = rev cur ++ l ++ [c].
Proof.
  induction l as [|x l IH]; intros cur; cbn [split].
  - cbn. rewrite app_nil_r. reflexivity.
  - destruct (x =? c) eqn:E.
    + apply Z.eqb_eq in E. subst x. cbn [map concat]. rewrite IH, <- app_assoc. reflexivity.
    + rewrite IH. cbn [rev]. rewrite <- app_assoc. reflexivity.
Qed.

Fixpoint lines (l cur : bytes) : list bytes :=
  match l with
  | [] => match cur with [] => [] | _ => [rev cur] end
  | x :: r => if x =? c then rev (x :: cur) :: lines r [] else lines r (x :: cur)
  end.

Definition is_line (l : bytes) : Prop := exists a, l = a ++ [c] /\ ~ In c a.

Lemma lines_run : forall a rest cur, ~ In c a -> lines (a ++ rest) cur = lines rest (rev a ++ cur).
Proof. apply scan_run. intros x r cur N. cbn [lines]. apply Z.eqb_neq in N. rewrite N. reflexivity. Qed.

Lemma lines_line a rest cur : ~ In c a -> lines (a ++ c :: rest) cur = (rev cur ++ a ++ [c]) :: lines rest [].
Proof.
  intros H. rewrite lines_run by exact H. cbn [lines rev]. rewrite Z.eqb_refl, rev_app_distr, rev_involutive, app_assoc.
  reflexivity.
Qed.

Lemma lines_concat : forall l cur, concat (lines l cur) = rev cur ++ l.
Proof.
  induction l as [|x l IH]; intros cur; cbn [lines].
  - destruct cur; [reflexivity|]. cbn [concat]. rewrite !app_nil_r. reflexivity.
  - destruct (x =? c); [cbn [concat]|]; rewrite IH; cbn [rev app]; rewrite <- app_assoc; reflexivity.
Qed.

Lemma lines_of_lines : forall ls rest, Forall is_line ls -> lines (concat ls ++ rest) [] = ls ++ lines rest [].
Proof.
  induction ls as [|l ls IH]; intros rest H; [reflexivity|].
  inversion H as [|? ? (a & -> & Ha) Hls]; subst. cbn [concat]. rewrite <- !app_assoc. cbn [app].
  rewrite lines_line by exact Ha. rewrite IH by exact Hls. reflexivity.
Qed.

Fixpoint split1 (l cur : bytes) : option (bytes * bytes) :=
  match l with
  | [] => None
  | x :: r => if x =? c then Some (rev cur, r) else split1 r (x :: cur)
  end.

Lemma split1_run : forall a rest cur, ~ In c a -> split1 (a ++ rest) cur = split1 rest (rev a ++ cur).
Proof. apply scan_run. intros x r cur N. cbn [split1]. apply Z.eqb_neq in N. rewrite N. reflexivity. Qed.

Lemma split1_at a rest cur : ~ In c a -> split1 (a ++ c :: rest) cur = Some (rev cur ++ a, rest).
Proof.
  intros H. rewrite split1_run by exact H. cbn [split1]. rewrite Z.eqb_refl, rev_app_distr, rev_involutive.
  reflexivity.
Qed.

Lemma split1_none a cur : ~ In c a -> split1 a cur = None.
Proof. intros H. rewrite <- (app_nil_r a), split1_run by exact H. reflexivity. Qed.

End Sep.
