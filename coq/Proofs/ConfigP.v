(* Proofs/ConfigP.v — the value the writer formats (format_string: quoted when it must be, escaped
   always) goes back to itself through dulwich's reader ps and through git's reader gpv.  Both are followed
   byte by byte over escape_value v; outside quotes both hold spaces back until another byte flushes them,
   and an unquoted value does not end in a space, so its last byte flushes everything. *)
From DV Require Import Config.

Lemma mem_false c v : mem c v = false -> ~ In c v.
Proof. intros H I. apply (existsb_eqb_In Z.eqb Z.eqb_eq) in I. unfold mem in H. congruence. Qed.

Lemma needs_quote_false v : needs_quote v = false ->
  starts_blank v = false /\ ends_blank v = false /\ Forall (fun c => c <> HASH /\ c <> SEMI /\ c <> CR) v.
Proof.
  unfold needs_quote. intros H. repeat (apply orb_false_elim in H; destruct H as [H ?]).
  repeat split; try assumption. apply Forall_forall. intros c I.
  repeat split; intros ->; revert I; apply mem_false; assumption.
Qed.

Lemma ends_blank_last u c : ends_blank (u ++ [c]) = is_blank c.
Proof. unfold ends_blank. rewrite rev_unit. reflexivity. Qed.

Inductive esc_view (c : Z) : bytes -> Prop :=
| esc_bs : c = BS -> esc_view c [BS; BS]
| esc_lf : c = LF -> esc_view c [BS; 110]
| esc_tab : c = TAB -> esc_view c [BS; 116]
| esc_dq : c = DQ -> esc_view c [BS; DQ]
| esc_plain : (c =? BS) = false -> (c =? LF) = false -> (c =? TAB) = false -> (c =? DQ) = false -> esc_view c [c].

Lemma esc_byteP c : esc_view c (esc_byte c).
Proof.
  unfold esc_byte. destruct (c =? BS) eqn:E1; [apply esc_bs; lia|]. destruct (c =? LF) eqn:E2; [apply esc_lf; lia|].
  destruct (c =? TAB) eqn:E3; [apply esc_tab; lia|]. destruct (c =? DQ) eqn:E4; [apply esc_dq; lia|].
  apply esc_plain; assumption.
Qed.

Lemma escape_value_cons c v tail : escape_value (c :: v) ++ tail = esc_byte c ++ escape_value v ++ tail.
Proof. unfold escape_value. cbn [flat_map]. symmetry. apply app_assoc. Qed.

(* One byte of the value through the dulwich reader.  Inside quotes nothing is pending (ws = []); outside,
   a space is kept pending and any other byte flushes what is pending.  Comment characters never occur
   outside quotes. *)
Lemma ps_esc_byte c tail ret ws inq :
  (inq = true -> ws = []) -> (inq = false -> c <> HASH /\ c <> SEMI) ->
  ps (esc_byte c ++ tail) ret ws inq =
  if (c =? SP) && negb inq then ps tail ret (ws ++ [c]) inq else ps tail (ret ++ ws ++ [c]) [] inq.
Proof.
  intros Hq Hc. destruct (esc_byteP c) as [->| ->| ->| ->|E1 E2 E3 E4]; try reflexivity.
  cbn [app ps]. rewrite E1, E4. unfold is_blank. rewrite E3, orb_false_r.
  destruct inq; cbn [negb andb]; rewrite ?andb_false_r, ?andb_true_r.
  - rewrite (Hq eq_refl). destruct (c =? SP); reflexivity.
  - replace ((c =? HASH) || (c =? SEMI)) with false by (destruct (Hc eq_refl); lia). destruct (c =? SP); reflexivity.
Qed.

Lemma ps_quoted : forall v tail ret,
  ps (escape_value v ++ tail) ret [] true = ps tail (ret ++ v) [] true.
Proof.
  induction v as [|c v IH]; intros tail ret; [cbn; rewrite app_nil_r; reflexivity|].
  rewrite escape_value_cons, ps_esc_byte by (auto || discriminate).
  rewrite andb_false_r. cbn [app]. rewrite IH, <- app_assoc. reflexivity.
Qed.

Lemma spaces_app n r : spaces n ++ SP :: r = spaces (S n) ++ r.
Proof. induction n as [|n IH]; [reflexivity|]. cbn [spaces app] in *. rewrite IH. reflexivity. Qed.

Lemma spaces_all n : Forall (eq SP) (spaces n).
Proof. induction n; constructor; auto. Qed.

(* Outside quotes only ret ++ ws matters, because the last byte is not a space and flushes what is pending. *)
Lemma ps_unquoted : forall u c tail ret ws,
  Forall (fun x => x <> HASH /\ x <> SEMI) (u ++ [c]) -> c <> SP ->
  ps (escape_value (u ++ [c]) ++ tail) ret ws false = ps tail (ret ++ ws ++ u ++ [c]) [] false.
Proof.
  induction u as [|x u IH]; intros c tail ret ws Hp Hc; cbn [app];
    rewrite escape_value_cons, ps_esc_byte, andb_true_r by (discriminate || (intros _; exact (Forall_inv Hp))).
  - replace (c =? SP) with false by lia. reflexivity.
  - apply Forall_inv_tail in Hp. destruct (x =? SP).
    + (* held back *) rewrite IH by assumption. rewrite <- app_assoc. reflexivity.
    + (* flushes *) rewrite IH by assumption. rewrite <- !app_assoc. reflexivity.
Qed.

Lemma ps_format v : ps (format_string v) [] [] false = Some v.
Proof.
  unfold format_string. destruct (needs_quote v) eqn:Eq.
  - change (ps (DQ :: ?r) [] [] false) with (ps r [] [] true). rewrite ps_quoted. reflexivity.
  - apply needs_quote_false in Eq. destruct Eq as (_ & He & Hp).
    destruct v as [|c u _] using rev_ind; [reflexivity|]. rewrite ends_blank_last in He.
    pose proof (ps_unquoted u c [] [] []) as P. rewrite app_nil_r in P. apply P.
    + eapply Forall_impl; [|exact Hp]. intros x (Hh & Hs & _). split; assumption.
    + unfold is_blank in He. lia.
Qed.

(* lstrip leaves s as it is *)
Definition kept (s : bytes) : Prop := match s with c :: _ => is_strip c = false | [] => True end.

Lemma lstrip_kept s : kept s -> lstrip s = s.
Proof. destruct s as [|c r]; [reflexivity|]. cbn. intros ->. reflexivity. Qed.

Lemma lstrip_head c r x : is_strip c = false -> lstrip ((c :: r) ++ x) = (c :: r) ++ x.
Proof. intros H. cbn. rewrite H. reflexivity. Qed.

Lemma strip_value_part s : kept s -> kept (rev s) -> strip (SP :: s ++ [LF]) = s.
Proof.
  intros H1 H2. destruct s as [|c r]; [reflexivity|].
  unfold strip. change (lstrip (SP :: ?x)) with (lstrip x). rewrite (lstrip_head c r [LF] H1), rev_unit.
  change (lstrip (LF :: ?x)) with (lstrip x). rewrite lstrip_kept by exact H2. apply rev_involutive.
Qed.

Lemma esc_byte_kept c x : is_blank c = false -> c <> CR -> kept (esc_byte c ++ x) /\ kept (rev (esc_byte c) ++ x).
Proof.
  unfold is_blank. intros H1 H2. destruct (esc_byteP c) as [->| ->| ->| ->|E1 E2 E3 E4]; try (split; reflexivity).
  apply orb_false_elim in H1. destruct H1 as [H1 _].
  assert (is_strip c = false) by (unfold is_strip; rewrite H1, E2, E3; cbn [orb]; lia). split; assumption.
Qed.

Lemma format_kept v : kept (format_string v) /\ kept (rev (format_string v)).
Proof.
  unfold format_string. destruct (needs_quote v) eqn:Eq.
  - split; [reflexivity|]. cbn [rev]. rewrite rev_unit. reflexivity.
  - apply needs_quote_false in Eq. destruct Eq as (Hs & He & Hp). unfold escape_value. split.
    + destruct v as [|c v]; [exact I|]. apply esc_byte_kept; [exact Hs|apply (Forall_inv Hp)].
    + destruct v as [|z u _] using rev_ind; [exact I|]. rewrite ends_blank_last in He.
      rewrite flat_map_app, rev_app_distr. cbn [flat_map]. rewrite app_nil_r.
      apply esc_byte_kept; [exact He|apply (Forall_elt _ _ _ Hp)].
Qed.

Lemma crlf_no_lf : forall l, Forall (fun c => c <> LF) l -> last l SP <> CR -> crlf (l ++ [LF]) = l ++ [LF].
Proof.
  induction l as [|c r IH]; intros Hf Hl; [reflexivity|].
  inversion Hf as [|? ? Hc Hr]; subst.
  destruct r as [|n r'].
  - cbn [app crlf last] in *. replace ((c =? CR) && (LF =? LF)) with false by lia. reflexivity.
  - cbn [app crlf]. inversion Hr; subst.
    replace ((c =? CR) && (n =? LF)) with false by lia.
    f_equal. apply IH; [assumption|]. exact Hl.
Qed.

Lemma format_no_lf v : Forall (fun x => x <> LF) (format_string v).
Proof.
  assert (E : Forall (fun x => x <> LF) (escape_value v)).
  { apply Forall_forall. intros x I. apply in_flat_map in I. destruct I as (c & _ & I).
    destruct (esc_byteP c) as [?|?|?|?|_ E _ _]; cbn in I; unfold BS, LF, DQ in *; lia. }
  unfold format_string. destruct (needs_quote v); [|exact E].
  constructor; [discriminate|]. apply Forall_app. split; [exact E|]. constructor; [discriminate|constructor].
Qed.

Lemma crlf_value_part v : crlf (value_part v) = value_part v.
Proof.
  unfold value_part. change (SP :: format_string v ++ [LF]) with ((SP :: format_string v) ++ [LF]).
  apply crlf_no_lf.
  - constructor; [discriminate|apply format_no_lf].
  - destruct (format_kept v) as [_ H]. revert H. destruct (format_string v) as [|z u _] using rev_ind; [discriminate|].
    rewrite rev_unit. change (SP :: u ++ [z]) with ((SP :: u) ++ [z]). rewrite last_last. intros H ->. discriminate H.
Qed.

(* git's reader counts a space only once the value has begun *)
Lemma gpv_esc_byte c tail val space quote :
  (quote = false -> (c <> HASH /\ c <> SEMI /\ c <> CR) /\ (val <> [] \/ is_blank c = false)) ->
  gpv (esc_byte c ++ tail) val space quote false =
  if (c =? SP) && negb quote then gpv tail val (S space) quote false
  else gpv tail (val ++ spaces space ++ [c]) 0 quote false.
Proof.
  intros Hc. destruct (esc_byteP c) as [->| ->| ->| ->|E1 E2 E3 E4]; try (destruct quote; cbn; rewrite <- app_assoc; reflexivity).
  cbn [app gpv]. rewrite E2, E1, E4. unfold git_space. rewrite E2, E3, !orb_false_r.
  destruct quote; cbn [negb andb]; rewrite ?andb_false_r, ?andb_true_r, <- ?app_assoc; [reflexivity|].
  destruct (Hc eq_refl) as ((H1 & H2 & H3) & H4). replace (c =? CR) with false by lia. rewrite orb_false_r.
  destruct (c =? SP) eqn:E5.
  - destruct H4 as [H4|H4]; [destruct val; [contradiction|reflexivity]|unfold is_blank in H4; lia].
  - replace ((c =? SEMI) || (c =? HASH)) with false by lia. reflexivity.
Qed.

Lemma gpv_quoted : forall v tail val,
  gpv (escape_value v ++ tail) val 0 true false = gpv tail (val ++ v) 0 true false.
Proof.
  induction v as [|c v IH]; intros tail val; [cbn; rewrite app_nil_r; reflexivity|].
  rewrite escape_value_cons, gpv_esc_byte by discriminate.
  rewrite andb_false_r. cbn [spaces app]. rewrite IH, <- app_assoc. reflexivity.
Qed.

(* As in ps_unquoted; and the value must have begun before its first space: val <> [], or the stretch starts
   with something else. *)
Lemma gpv_unquoted : forall u c tail val space,
  val <> [] \/ starts_blank (u ++ [c]) = false ->
  Forall (fun x => x <> HASH /\ x <> SEMI /\ x <> CR) (u ++ [c]) -> c <> SP ->
  gpv (escape_value (u ++ [c]) ++ tail) val space false false = gpv tail (val ++ spaces space ++ u ++ [c]) 0 false false.
Proof.
  induction u as [|x u IH]; intros c tail val space Hv Hp Hc; cbn [app];
    rewrite escape_value_cons, gpv_esc_byte, andb_true_r by (intros _; split; [exact (Forall_inv Hp)|exact Hv]).
  - replace (c =? SP) with false by lia. reflexivity.
  - apply Forall_inv_tail in Hp. destruct (x =? SP) eqn:E.
    + (* held back: the value has begun *) assert (x = SP) by lia. subst x.
      rewrite IH, spaces_app by (assumption || (left; destruct Hv; [assumption|discriminate])). reflexivity.
    + (* flushes *) rewrite IH by (assumption || (left; destruct val, space; discriminate)).
      cbn [spaces app]. rewrite <- !app_assoc. reflexivity.
Qed.

Lemma gpv_dq r val space quote : gpv (DQ :: r) val space quote false = gpv r (val ++ spaces space) 0 (negb quote) false.
Proof. destruct quote; reflexivity. Qed.

Lemma gpv_value_part v : gpv (value_part v) [] 0 false false = Some v.
Proof.
  unfold value_part. change (gpv (SP :: ?r) [] 0 false false) with (gpv r [] 0 false false).
  unfold format_string. destruct (needs_quote v) eqn:Eq.
  - cbn [app]. rewrite gpv_dq, <- app_assoc, gpv_quoted. cbn [app]. rewrite gpv_dq, app_nil_r. reflexivity.
  - apply needs_quote_false in Eq. destruct Eq as (Hb & He & Hp).
    destruct v as [|c u _] using rev_ind; [reflexivity|]. rewrite ends_blank_last in He.
    rewrite gpv_unquoted by (auto || (unfold is_blank in He; lia)). reflexivity.
Qed.

Lemma unescape_bs e r : unescape_subsection (BS :: e :: r) = e :: unescape_subsection r.
Proof. reflexivity. Qed.

Lemma unescape_escape_sub : forall n, unescape_subsection (flat_map esc_sub_byte n) = n.
Proof.
  induction n as [|c n IH]; [reflexivity|]. cbn [flat_map]. unfold esc_sub_byte at 1.
  destruct (c =? BS) eqn:E1; [|destruct (c =? DQ) eqn:E2].
  - replace c with BS by lia. cbn [app]. rewrite unescape_bs, IH. reflexivity.
  - replace c with DQ by lia. cbn [app]. rewrite unescape_bs, IH. reflexivity.
  - cbn [app unescape_subsection]. rewrite E1, IH. reflexivity.
Qed.

(* the values "a;b", " a ", CR, VT a FF, "#" and DQ BS LF TAB, through both readers *)
Example ex_values :
  map (fun v => (parse_string (value_part v), git_parse_value (value_part v)))
      [[97;59;98]; [32;97;32]; [13]; [11;97;12]; [35]; [34;92;10;9]] =
  map (fun v => (Some v, Some v)) [[97;59;98]; [32;97;32]; [13]; [11;97;12]; [35]; [34;92;10;9]].
Proof. vm_compute. reflexivity. Qed.
