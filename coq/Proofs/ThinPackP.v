(* Proofs/ThinPackP.v — a thin pack that is resolved completely is completed without holding an object twice.
   Only the invariant is proved: that the model's fuel, S (length es), resolves all that can be resolved is not,
   and the property assumes that every entry was resolved. *)
From DV Require Import ListFacts ThinPack.

Lemma In_remove1 x y l : In x (remove1 y l) <-> In x l /\ x <> y.
Proof. apply In_remove_nat. Qed.

Lemma In_others_key b x p : In x (map fst (others b p)) <-> In x (map fst p) /\ x <> b.
Proof.
  unfold others. rewrite !in_map_iff. split.
  - intros (kv & <- & H). apply (filter_neqb_In Nat.eqb Nat.eqb_eq fst) in H. destruct H as [H N]. eauto.
  - intros [(kv & <- & H) N]. exists kv. split; [reflexivity|]. apply (filter_neqb_In Nat.eqb Nat.eqb_eq fst). auto.
Qed.

(* a base is fetched from the store only while a delta waits for it, so it has not been produced; when it is
   produced later (it was an entry as well) the repair takes it off [ext] again *)
Definition thin_inv (s : st) : Prop :=
  (forall x, In x (ext s) -> ~ In x (prod s)) /\
  NoDup (ext s) /\
  (forall b, In b (map fst (pend s)) -> ~ In b (prod s)) /\
  (forall x, In x (ext s) -> ~ In x (map fst (pend s))).

Lemma follow_inv : forall fuel todo s, thin_inv s -> thin_inv (follow true fuel todo s).
Proof.
  induction fuel as [|f IH]; intros todo s I; [exact I|]. cbn [follow]. destruct todo as [|n rest]; [exact I|].
  apply IH. destruct I as (I1 & I2 & I3 & I4). repeat split; cbn [ext prod pend].
  - intros x Hx [E|Hp]; apply In_remove1 in Hx; destruct Hx as [Hx Hn]; [congruence|exact (I1 x Hx Hp)].
  - apply NoDup_filter. exact I2.
  - intros b Hb [E|Hp]; apply In_others_key in Hb; destruct Hb as [Hb Hn]; [congruence|exact (I3 b Hb Hp)].
  - intros x Hx Hk. apply In_remove1 in Hx. apply In_others_key in Hk. exact (I4 x (proj1 Hx) (proj1 Hk)).
Qed.

Lemma walk_refs_inv : forall bases fuel store s, thin_inv s -> thin_inv (walk_refs true fuel store bases s).
Proof.
  induction bases as [|b rest IH]; intros fuel store s I; [exact I|]. cbn [walk_refs].
  destruct (mem b (map fst (pend s)) && store b) eqn:E; [|apply IH; exact I].
  apply andb_true_iff in E. destruct E as [Ek _]. apply mem_nat_In in Ek.
  apply IH. apply follow_inv. destruct I as (I1 & I2 & I3 & I4). repeat split; cbn [ext prod pend].
  - intros x [->|Hx]; [apply I3; exact Ek|apply I1; exact Hx].
  - constructor; [|exact I2]. intros Hx. exact (I4 b Hx Ek).
  - intros k Hk. apply In_others_key in Hk. apply I3. exact (proj1 Hk).
  - intros x [->|Hx] Hk; apply In_others_key in Hk; [exact (proj2 Hk eq_refl)|exact (I4 x Hx (proj1 Hk))].
Qed.

Lemma initial_inv es : thin_inv (initial es).
Proof.
  unfold initial. repeat split; cbn [ext prod pend].
  - intros x [].
  - constructor.
  - intros b _ [].
  - intros x [].
Qed.

Lemma complete_inv store order es : thin_inv (complete true store order es).
Proof. unfold complete. apply walk_refs_inv. apply follow_inv. apply initial_inv. Qed.

(* Q (= 1) is a delta on X (= 5), P (= 2) a delta on Q; the store has Q and X; in the order [1; 5] Q comes first *)
Definition ex_entries : list entry := [(1, KDelta 5); (2, KDelta 1)].
Definition ex_store (n : nat) : bool := Nat.eqb n 1 || Nat.eqb n 5.
Example with_the_repair :
  completed_names ex_entries (complete true ex_store [1; 5] ex_entries) = [1; 2; 5].
Proof. vm_compute. reflexivity. Qed.
