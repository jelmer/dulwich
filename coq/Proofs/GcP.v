(* Proofs/GcP.v — the worklist of find_reachable marks exactly the reachable objects *)
From DV Require Import ListFacts Gc.

Lemma mem_In x l : mem x l = true <-> In x l.
Proof. apply mem_nat_In. Qed.

Lemma mem_notIn x l : mem x l = false <-> ~ In x l.
Proof. apply mem_nat_notIn. Qed.

Lemma visits_spec ds : forall pending reach p' r', fold_left visit ds (pending, reach) = (p', r') ->
  (forall o, In o r' <-> In o reach \/ In o ds) /\
  (forall o, In o p' <-> In o pending \/ (In o ds /\ ~ In o reach)).
Proof.
  induction ds as [|d t IH]; intros pending reach p' r' H; cbn [fold_left In] in *.
  - inversion H; subst. split; intros o; tauto.
  - unfold visit at 2 in H. destruct (mem d reach) eqn:E; apply IH in H; destruct H as [A B].
    + apply mem_In in E. split; intros o; [rewrite A|rewrite B]; destruct (Nat.eq_dec d o) as [<-|N]; tauto.
    + apply mem_notIn in E. split; intros o; [rewrite A|rewrite B, in_app_iff]; cbn [In];
        destruct (Nat.eq_dec d o) as [<-|N]; tauto.
Qed.

Lemma In_after_gc stored to_prune o : In o (after_gc stored to_prune) <-> In o stored /\ ~ In o to_prune.
Proof. unfold after_gc. rewrite filter_In, negb_true_iff, mem_notIn. reflexivity. Qed.

Lemma In_prunable stored reach old_enough o :
  In o (prunable stored reach old_enough) <-> In o stored /\ ~ In o reach /\ old_enough o = true.
Proof. unfold prunable. rewrite filter_In, andb_true_iff, negb_true_iff, mem_notIn. reflexivity. Qed.

Section Walk.
  Variable deps : nat -> list nat.
  Variable roots : list nat.

  (* marked when queued: what is pending is marked already.  gc_closed is the point: a marked object is still
     pending or has its dependencies marked, so once nothing is pending the marked set is closed under deps *)
  Record gc_inv (pending reach : list nat) : Prop := {
    gc_roots : forall o, In o roots -> In o reach;
    gc_sound : forall o, In o reach -> reachable deps roots o;
    gc_queued : forall o, In o pending -> In o reach;
    gc_closed : forall o, In o reach -> In o pending \/ forall d, In d (deps o) -> In d reach
  }.

  Lemma start_inv p r : fold_left visit roots ([], []) = (p, r) -> gc_inv p r.
  Proof.
    intros V. apply visits_spec in V. destruct V as [A B]. constructor; intros o Ho.
    - apply A. right. exact Ho.
    - apply A in Ho. destruct Ho as [[]|Ho]. apply r_root. exact Ho.
    - apply A. apply B in Ho. tauto.
    - left. apply B. apply A in Ho. tauto.
  Qed.

  Lemma pop_inv x rest reach p' r' :
    gc_inv (x :: rest) reach -> fold_left visit (deps x) (rest, reach) = (p', r') -> gc_inv p' r'.
  Proof.
    intros [Rt S Q C] V. apply visits_spec in V. destruct V as [A B]. constructor; intros o Ho.
    - apply A. left. apply Rt. exact Ho.
    - apply A in Ho. destruct Ho as [Ho|Ho]; [apply S; exact Ho|].
      eapply r_step; [apply S; apply Q; left; reflexivity|exact Ho].
    - apply A. apply B in Ho. destruct Ho as [Ho|[Ho _]]; [left; apply Q; right; exact Ho|right; exact Ho].
    - destruct (in_dec Nat.eq_dec o reach) as [Hr|N]; [|left; apply B; right; apply A in Ho; tauto].
      destruct (C o Hr) as [[<-|X]|X].
      + right. intros d Hd. apply A. right. exact Hd.
      + left. apply B. left. exact X.
      + right. intros d Hd. apply A. left. apply X. exact Hd.
  Qed.

  Lemma walk_inv : forall fuel pending reach R,
    gc_inv pending reach -> walk deps fuel pending reach = Some R -> gc_inv [] R.
  Proof.
    induction fuel as [|f IH]; intros [|x rest] reach R Hinv H; cbn [walk] in H; try discriminate.
    - (* no fuel, nothing pending *) inversion H; subst; exact Hinv.
    - (* nothing pending *) inversion H; subst; exact Hinv.
    - (* x is popped *)
      destruct (fold_left visit (deps x) (rest, reach)) as [p' r'] eqn:V. exact (IH _ _ _ (pop_inv _ _ _ _ _ Hinv V) H).
  Qed.

  Lemma find_reachable_exact fuel R : find_reachable deps fuel roots = Some R ->
    forall o, In o R <-> reachable deps roots o.
  Proof.
    unfold find_reachable. destruct (fold_left visit roots ([], [])) as [p r] eqn:V. intros H.
    destruct (walk_inv _ _ _ _ (start_inv _ _ V) H) as [Rt S _ C]. intros o. split; [apply S|].
    induction 1 as [o Ho|o d _ IH Hd]; [apply Rt; exact Ho|]. destruct (C o IH) as [[]|X]. apply X. exact Hd.
  Qed.
End Walk.
