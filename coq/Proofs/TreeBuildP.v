(* Proofs/TreeBuildP.v — the trees commit_tree builds answer lookups exactly as the listing does *)
From DV Require Import RustTwinsP TreeDiffP TreeBuild.
Local Open Scope nat_scope.

Definition prefix_free (L : listing) : Prop :=
  forall q1 v1 q2 v2, In (q1, v1) L -> In (q2, v2) L -> is_prefix q1 q2 = true -> (q1, v1) = (q2, v2).

Lemma under_in n : forall L r v, In (r, v) (under n L) <-> In (n :: r, v) L.
Proof.
  induction L as [|[[|c q] w] L IH]; intros r v; cbn [under].
  - split; intros [].
  - rewrite IH. split; [intros H; right; exact H|intros [H|H]; [discriminate|exact H]].
  - destruct (bytes_beqP c n) as [->|NE]; [cbn [In]|]; rewrite IH.
    + split; (intros [X|X]; [left; inversion X; subst; reflexivity|right; exact X]).
    + split; [intros X; right; exact X|intros [X|X]; [|exact X]]. inversion X; subst. contradiction.
Qed.

Lemma lookupL_under n : forall L r, lookupL (n :: r) L = lookupL r (under n L).
Proof.
  unfold lookupL. induction L as [|[[|c q] w] L IH]; intros r; cbn [under List.find fst path_beq]; [reflexivity|apply IH|].
  destruct (bytes_beq c n) eqn:E; cbn [andb].
  - cbn [List.find fst]. destruct (path_beq q r); [reflexivity|apply IH].
  - apply IH.
Qed.

Lemma lookupL_some q : forall L v, lookupL q L = Some v -> In (q, v) L.
Proof.
  unfold lookupL. intros L v H. destruct (List.find _ L) as [[q' v']|] eqn:E; [|discriminate].
  apply find_some in E. destruct E as [I P]. cbn in P. apply path_beq_spec in P. subst. inversion H; subst. exact I.
Qed.
Lemma lookupL_none q : forall L, lookupL q L = None -> forall v, ~ In (q, v) L.
Proof.
  unfold lookupL. intros L H v I. destruct (List.find _ L) eqn:E; [discriminate|].
  apply (find_none _ _ E) in I. cbn [fst] in I. rewrite (proj2 (path_beq_spec q q) eq_refl) in I. discriminate.
Qed.

Lemma is_prefix_refl q : is_prefix q q = true.
Proof. induction q as [|x q IH]; cbn; [reflexivity|]. rewrite bytes_beq_refl. exact IH. Qed.

Lemma prefix_free_under n L : prefix_free L -> prefix_free (under n L).
Proof.
  intros P q1 v1 q2 v2 I1 I2 X. apply under_in in I1. apply under_in in I2.
  assert (Y : is_prefix (n :: q1) (n :: q2) = true) by (cbn; rewrite bytes_beq_refl; exact X).
  specialize (P _ _ _ _ I1 I2 Y). inversion P; subst. reflexivity.
Qed.

Lemma lookupL_in_iff L q lf : prefix_free L -> (lookupL q L = Some lf <-> In (q, lf) L).
Proof.
  intros P. split; [apply lookupL_some|]. intros I. destruct (lookupL q L) as [v|] eqn:E.
  - apply lookupL_some in E. specialize (P _ _ _ _ E I (is_prefix_refl q)). inversion P; subst. reflexivity.
  - exfalso. eapply lookupL_none; eauto.
Qed.

Lemma file_has_no_children L lf : prefix_free L -> lookupL [] L = Some lf -> forall r, r <> [] -> lookupL r L = None.
Proof.
  intros P F r NE. destruct (lookupL r L) as [v|] eqn:E; [|reflexivity]. exfalso.
  apply lookupL_some in F. apply lookupL_some in E. specialize (P _ _ _ _ F E eq_refl). inversion P; subst. contradiction.
Qed.

Lemma ins_in n : forall l x, In x (ins n l) <-> x = n \/ In x l.
Proof.
  induction l as [|y l IH]; intros x; cbn [ins].
  - cbn [In]. split; intros [E|[]]; left; symmetry; exact E.
  - destruct (bytes_cmp n y) eqn:C; cbn [In].
    + (* n < y: n goes in front *) split; (intros [E|R]; [left; symmetry; exact E|right; exact R]).
    + (* n = y: it is there already *)
      apply bytes_cmp_eq in C. subst. split; [intros R; right; exact R|intros [E|R]; [left; symmetry; exact E|exact R]].
    + (* n > y: further down *) rewrite IH. tauto.
Qed.
Lemma heads_in : forall L n, In n (heads L) <-> exists r v, In (n :: r, v) L.
Proof.
  induction L as [|[[|c q] w] L IH]; intros n; cbn [heads fold_right fst].
  - split; [intros []|intros (r & v & [])].
  - fold (heads L). rewrite IH. split; intros (r & v & X); exists r, v; [right; exact X|destruct X as [X|X]; [discriminate|exact X]].
  - fold (heads L). rewrite ins_in, IH. split.
    + intros [->|(r & v & X)]; [exists q, w; left; reflexivity|exists r, v; right; exact X].
    + intros (r & v & [X|X]); [inversion X; subst; left; reflexivity|right; eauto].
Qed.

(* a directory's entries are made from its names by a g that keeps the name (tree_entry); the order of the
   names is said of the entries, where it is TreeDiffP's sorted_ents *)
Section NamedBy.
  Variable g : bytes -> tent.
  Hypothesis Hg : forall n, t_name (g n) = n.

  Lemma find_map_name n : forall l,
    find n (map g l) = Some (g n) /\ In n l \/ find n (map g l) = None /\ ~ In n l.
  Proof.
    induction l as [|m l IH]; cbn [map In]; [right; split; [reflexivity|intros []]|].
    rewrite find_cons, Hg. destruct (bytes_beqP m n) as [->|NE]; [left; auto|tauto].
  Qed.

  Lemma ins_sorted n : forall l, sorted_ents (map g l) -> sorted_ents (map g (ins n l)).
  Proof.
    induction l as [|y l IH]; intros S; cbn [ins map]; [constructor; constructor|].
    inversion S as [|? ? F S']; subst. destruct (bytes_cmp n y) eqn:C; cbn [map].
    - (* n < y: n goes in front *) constructor; [|exact S]. apply below_cons; [rewrite !Hg; exact C|exact F].
    - (* n = y *) exact S.
    - (* n > y: after y come n and the names of l *) constructor; [|apply IH; exact S'].
      apply Forall_forall. intros x Hx. apply in_map_iff in Hx. destruct Hx as (m & <- & Hm).
      apply ins_in in Hm. destruct Hm as [->|Hm]; [rewrite !Hg; exact (bytes_cmp_flip _ _ _ C)|].
      exact (below_in _ _ _ F (in_map g _ _ Hm)).
  Qed.
  Lemma heads_sorted : forall L, sorted_ents (map g (heads L)).
  Proof.
    induction L as [|[[|c q] w] L IH]; cbn [heads fold_right fst]; [constructor|exact IH|]. apply ins_sorted. exact IH.
  Qed.
End NamedBy.

Lemma validb_ok : forall L, validb L = true ->
  prefix_free L /\ forall q v, In (q, v) L -> is_dir (fst v) = false /\ q <> [].
Proof.
  induction L as [|[p w] L IH]; intros V.
  - split; [intros ? ? ? ? []|intros ? ? []].
  - cbn [validb fst snd] in V. rewrite !andb_true_iff, negb_true_iff, forallb_forall in V.
    destruct V as (((V0 & V1) & V2) & V3). destruct (IH V3) as [PF D].
    assert (X : forall q v, In (q, v) L -> is_prefix p q = false /\ is_prefix q p = false).
    { intros q v I. specialize (V2 _ I). cbn [fst] in V2. rewrite andb_true_iff, !negb_true_iff in V2. exact V2. }
    split.
    + intros q1 v1 q2 v2 [I1|I1] [I2|I2] Y.
      * congruence.
      * inversion I1; subst. destruct (X _ _ I2). congruence.
      * inversion I2; subst. destruct (X _ _ I1). congruence.
      * eapply PF; eauto.
    + intros q v [I|I]; [|exact (D q v I)]. inversion I; subst. split; [exact V0|]. intros ->. discriminate.
Qed.
Lemma depth_bound : forall L q v, In (q, v) L -> length q <= depth L.
Proof.
  induction L as [|[p w] L IH]; intros q v; [intros []|intros [E|I]]; cbn [depth fold_right fst].
  - inversion E; subst. apply Nat.le_max_l.
  - etransitivity; [eapply IH; exact I|apply Nat.le_max_r].
Qed.

Definition dir_entry (n : bytes) (id : bytes) : tent := {| t_name := n; t_mode := 16384; t_id := id |}.

Section Build.
  Variable H : list tent -> bytes.
  Hypothesis H_inj : forall a b, H a = H b -> a = b.

  (* the entry that ents writes for the name n: the model's local expression, repeated so that the lemmas can
     name it *)
  Definition tree_entry (f : nat) (L : listing) (n : bytes) : tent :=
    match lookupL [] (under n L) with
    | Some lf => {| t_name := n; t_mode := fst lf; t_id := snd lf |}
    | None => dir_entry n (H (ents H f (under n L)))
    end.
  Lemma ents_S f L : ents H (S f) L = map (tree_entry f L) (heads L).
  Proof. reflexivity. Qed.
  Lemma tree_entry_name f L n : t_name (tree_entry f L n) = n.
  Proof. unfold tree_entry. destruct (lookupL [] (under n L)); reflexivity. Qed.

  Lemma ents_in_trees : forall f L, In (ents H f L) (trees H f L).
  Proof. intros [|f] L; cbn [trees]; [left; reflexivity|]. apply in_or_app. right. left. reflexivity. Qed.

  Lemma store_hit st ts : (forall t, In t ts -> st (H t) = t) -> forall t, In t ts -> st (H t) = t.
  Proof. auto. Qed.

  Lemma store_of_hit ts t : In t ts -> store_of H ts (H t) = t.
  Proof.
    intros I. unfold store_of. destruct (List.find _ ts) as [t'|] eqn:E.
    - apply find_some in E. destruct E as [_ E]. apply bytes_beq_spec in E. apply H_inj in E. exact E.
    - eapply find_none in E; [|exact I]. cbn in E. rewrite bytes_beq_refl in E. discriminate.
  Qed.

  (* what the inductions below carry: a listing in the domain, no deeper than the fuel,
     and a store that returns every tree written for it *)
  Definition built (f : nat) (L : listing) (st : store) : Prop :=
    prefix_free L /\ (forall q v, In (q, v) L -> is_dir (fst v) = false /\ q <> [] /\ length q <= f) /\
    (forall t, In t (trees H f L) -> st (H t) = t).

  Lemma built_top L : validb L = true -> built (depth L) L (store_of H (trees H (depth L) L)).
  Proof.
    intros V. destruct (validb_ok L V) as [PF D]. split; [exact PF|]. split; [|intros t; apply store_of_hit].
    intros q v I. destruct (D q v I) as [ND NE]. split; [exact ND|]. split; [exact NE|exact (depth_bound L q v I)].
  Qed.

  Lemma built_under f L st n : built (S f) L st -> In n (heads L) -> lookupL [] (under n L) = None ->
    built f (under n L) st.
  Proof.
    intros (PF & D & ST) I F. split; [apply prefix_free_under; exact PF|]. split.
    - intros q v J. destruct (D _ _ (proj1 (under_in _ _ _ _) J)) as (ND & _ & LE).
      split; [exact ND|]. split; [intros ->; exact (lookupL_none _ _ F v J)|cbn in LE; lia].
    - intros t T. apply ST. cbn [trees]. apply in_or_app. left. apply in_flat_map. exists n. rewrite F. auto.
  Qed.

  Lemma built_sub f L st nm : built f L st -> sub st (Some (dir_entry nm (H (ents H f L)))) = ents H f L.
  Proof. intros (_ & _ & ST). apply ST, ents_in_trees. Qed.

  Lemma built_O L st : built 0 L st -> L = [].
  Proof.
    intros (_ & D & _). destruct L as [|[p v] L]; [reflexivity|]. destruct (D p v (or_introl eq_refl)) as (_ & A & B).
    destruct p; [contradiction|cbn in B; lia].
  Qed.

  Lemma built_no_root f L st : built f L st -> lookupL [] L = None.
  Proof.
    intros (_ & D & _). destruct (lookupL [] L) as [v|] eqn:E; [|reflexivity].
    apply lookupL_some in E. destruct (D _ _ E) as (_ & NE & _). contradiction.
  Qed.

  Lemma built_file f L st n lf : built f L st -> lookupL [] (under n L) = Some lf -> is_dir (fst lf) = false.
  Proof. intros (_ & D & _) F. apply (D [n]), under_in, lookupL_some, F. Qed.

  Lemma build_lookup q : forall f L st, built f L st ->
    forall nm, look st (Some (dir_entry nm (H (ents H f L)))) q = lookupL q L.
  Proof.
    induction q as [|n r IH]; intros f L st B nm.
    - (* the root itself *) rewrite (built_no_root _ _ _ B). reflexivity.
    - cbn [look]. rewrite (built_sub _ _ _ _ B). destruct f as [|f].
      { (* no fuel: the listing is empty *) rewrite (built_O L st B). apply look_none. }
      rewrite ents_S, lookupL_under.
      destruct (find_map_name (tree_entry f L) (tree_entry_name f L) n (heads L)) as [[-> X]|[-> X]].
      + unfold tree_entry. destruct (lookupL [] (under n L)) as [lf|] eqn:F.
        * (* a file: nothing below it *)
          rewrite look_file by exact (built_file _ _ _ _ _ B F). destruct r as [|m r]; [rewrite F; destruct lf; reflexivity|].
          symmetry. eapply file_has_no_children; [apply prefix_free_under, B|exact F|discriminate].
        * (* a directory: its tree was built from the paths below n *)
          apply (IH _ _ _ (built_under _ _ _ _ B X F)).
      + (* no such name: no path of the listing starts with n *)
        rewrite look_none. destruct (lookupL r (under n L)) as [v|] eqn:E; [|reflexivity].
        contradiction X. apply lookupL_some, under_in in E. apply heads_in. eauto.
  Qed.

  Lemma build_wft : forall f L st, built f L st -> forall nm, wft f st (Some (dir_entry nm (H (ents H f L)))).
  Proof.
    induction f as [|f IH]; intros L st B nm; [apply wft_leaf; exact (built_sub _ _ _ _ B)|].
    cbn [wft]. rewrite (built_sub _ _ _ _ B), ents_S. split; [apply heads_sorted, tree_entry_name|].
    intros c Hc. apply in_map_iff in Hc. destruct Hc as (n & <- & Hn). unfold tree_entry.
    destruct (lookupL [] (under n L)) as [lf|] eqn:F; [|apply (IH _ _ (built_under _ _ _ _ B Hn F))].
    apply wft_leaf. cbn [sub t_mode]. rewrite (built_file _ _ _ _ _ B F). reflexivity.
  Qed.

  Lemma build_flatten f L st : built f L st -> forall nm q lf,
    In (q, lf) (flatten f st (dir_entry nm (H (ents H f L)))) <-> In (q, lf) L.
  Proof.
    intros B nm q lf. rewrite (flatten_spec _ _ _ (build_wft _ _ _ B nm)), (build_lookup _ _ _ _ B).
    apply lookupL_in_iff, B.
  Qed.
End Build.
