(* Proofs/ReportStatusP.v — the server's status report, read back by the client *)
From DV Require Import CapsP ReportStatus.
From DV Require Sep.

(* split1_f is Sep.split1 SP, by conversion *)
Lemma split1_at a rest : ~ In SP a -> split1 (a ++ SP :: rest) = Some (a, rest).
Proof. exact (Sep.split1_at SP a rest []). Qed.

Lemma split1_none a : ~ In SP a -> split1 a = None.
Proof. exact (Sep.split1_none SP a []). Qed.

(* bytes_eqb is Bytes.bytes_beq, by conversion *)
Lemma bytes_eqb_refl a : bytes_eqb a a = true.
Proof. exact (bytes_beq_refl a). Qed.

Lemma msg_ok_ends m : msg_ok m = true -> ends nonspace m.
Proof.
  unfold msg_ok. destruct m as [|x t]; [discriminate|]. destruct (rev (x :: t)) as [|y r] eqn:R; [discriminate|].
  intros H. apply andb_true_iff in H. destruct H as [H _]. apply andb_true_iff in H. destruct H as [_ H].
  exists (rev r), y. split; [|apply negb_true_iff, H]. rewrite <- (rev_involutive (x :: t)), R. reflexivity.
Qed.

Section OneLine.
  Variable ref : bytes.
  Hypothesis Href : clean ref /\ ref <> [].

  Lemma ref_no_sp : ~ In SP ref.
  Proof. apply clean_notin; [apply Href|left; reflexivity]. Qed.

  Let ref_ends : ends nonspace ref.
  Proof. apply clean_ends; apply Href. Qed.

  (* split1 runs through the closed words "ok", "ng" by evaluation *)
  Lemma ok_line_parses : parse_status (status_line ref None) = PEntry ref None.
  Proof.
    unfold parse_status, status_line.
    rewrite (strip_spec [] (OK_ ++ [SP] ++ ref) [LF]); try reflexivity.
    apply ends_app, (ends_app _ [SP]), ref_ends.
  Qed.

  Lemma ng_line_parses msg : ends nonspace msg -> parse_status (status_line ref (Some msg)) = PEntry ref (Some msg).
  Proof.
    intros M. unfold parse_status, status_line.
    rewrite (strip_spec [] (NG_ ++ [SP] ++ ref ++ [SP] ++ msg) [LF]); try reflexivity.
    - change (split1 (NG_ ++ [SP] ++ ?r)) with (Some (NG_, r)). cbv beta iota. rewrite bytes_eqb_refl. cbn [app].
      rewrite split1_at by exact ref_no_sp. reflexivity.
    - rewrite <- !app_assoc. reflexivity.
    - apply ends_app, (ends_app _ [SP]), ends_app, (ends_app _ [SP]), M.
  Qed.

  Lemma ng_without_message_crashes : parse_status (status_line ref (Some [])) = PCrash.
  Proof.
    unfold parse_status, status_line.
    rewrite (strip_spec [] (NG_ ++ [SP] ++ ref) [SP; LF]); try reflexivity.
    - change (split1 (NG_ ++ [SP] ++ ?r)) with (Some (NG_, r)). cbv beta iota. rewrite bytes_eqb_refl, split1_none by exact ref_no_sp.
      reflexivity.
    - apply ends_app, (ends_app _ [SP]), ref_ends.
  Qed.
End OneLine.

Definition entry_ok (x : bytes * option bytes) : Prop :=
  (clean (fst x) /\ fst x <> []) /\ match snd x with Some m => msg_ok m = true | None => True end.

(* of msg_ok the reader needs only that strip() leaves the end of the message alone *)
Definition entry_ends (x : bytes * option bytes) : Prop :=
  (clean (fst x) /\ fst x <> []) /\ match snd x with Some m => ends nonspace m | None => True end.

Lemma entry_ok_ends x : entry_ok x -> entry_ends x.
Proof. intros [R M]. split; [exact R|]. destruct (snd x); [apply msg_ok_ends, M|exact M]. Qed.

Lemma entries_roundtrip : forall refs, Forall entry_ends refs ->
  parse_entries (map (fun x => status_line (fst x) (snd x)) refs) = Some refs.
Proof.
  induction refs as [|[ref st] refs IH]; intros F; [reflexivity|].
  inversion F as [|? ? [Hr Hs] F']; subst. cbn [map parse_entries fst snd] in *.
  rewrite IH by exact F'. destruct st as [m|].
  - rewrite ng_line_parses by assumption. reflexivity.
  - rewrite ok_line_parses by assumption. reflexivity.
Qed.

Lemma report_roundtrip_ends unpack refs : ends nonspace unpack -> Forall entry_ends refs ->
  parse_report (report unpack refs) = Some (UNPACK_ ++ [SP] ++ unpack, refs).
Proof.
  intros M F. unfold parse_report, report. rewrite entries_roundtrip by exact F. unfold unpack_line.
  rewrite (strip_spec [] (UNPACK_ ++ [SP] ++ unpack) [LF]); try reflexivity.
  apply ends_app, ends_app, M.
Qed.

Example ex_report :
  parse_report (report [111;107] [([114], None); ([115], Some [110;111])]) =
    Some ([117;110;112;97;99;107;32;111;107], [([114], None); ([115], Some [110;111])]) /\
  entry_ok ([115], Some [110;111]).
Proof. split; [vm_compute; reflexivity|]. unfold entry_ok, clean. cbn. repeat split; try discriminate. repeat constructor. Qed.
