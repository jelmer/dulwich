(* Proofs/AccelP.v — the graph algorithms depend on the parent / reference
   relation only through its values: two sources that agree on every object
   (the commit objects themselves, a commit-graph file) give the same answers *)
From DV Require Import Mof Lca.

Lemma fold_visit_ext : forall ds st, fold_left visit ds st = fold_left visit ds st.
Proof. reflexivity. Qed.

Section Ext.
  Variables f g : nat -> list nat.
  Hypothesis E : forall o, f o = g o.

  Lemma walk_ext : forall fuel p r, walk f fuel p r = walk g fuel p r.
  Proof.
    induction fuel as [|k IH]; intros p r; destruct p as [|x rest]; cbn [walk]; try reflexivity.
    rewrite E. destruct (fold_left visit (g x) (rest, r)) as [p' r']. apply IH.
  Qed.

  Lemma find_reachable_ext fuel roots : find_reachable f fuel roots = find_reachable g fuel roots.
  Proof. unfold find_reachable. destruct (fold_left visit roots ([], [])). apply walk_ext. Qed.

  Lemma collect_ext : forall fuel q c b common, collect f fuel q c b common = collect g fuel q c b common.
  Proof.
    induction fuel as [|k IH]; intros q c b common; destruct q as [|e q']; cbn [collect]; try reflexivity.
    rewrite E. destruct (mem e common); [apply IH|]. destruct (mem e c); apply IH.
  Qed.

  Lemma send_ext : forall fuel t d s, send f fuel t d s = send g fuel t d s.
  Proof.
    induction fuel as [|k IH]; intros t d s; destruct t as [|x rest]; cbn [send]; try reflexivity.
    rewrite E. destruct (mem x d); apply IH.
  Qed.
End Ext.

Lemma select_parents_ext kind_of (p1 p2 cdeps : nat -> list nat) :
  (forall o, p1 o = p2 o) -> forall fuel haves wants,
  select kind_of p1 cdeps fuel haves wants = select kind_of p2 cdeps fuel haves wants.
Proof.
  intros E fuel haves wants. unfold select.
  destruct (Mof.split kind_of fuel haves) as [[hc ht] ho]. destruct (Mof.split kind_of fuel wants) as [[wc wt] wo].
  rewrite (find_reachable_ext p1 p2 E). destruct (find_reachable p2 fuel hc) as [anc|]; [|reflexivity].
  rewrite (collect_ext p1 p2 E). reflexivity.
Qed.

Section LcaExt.
  Variables p1 p2 : node -> list node.
  Hypothesis E : forall v, p1 v = p2 v.
  Variable pick : list node -> nat.

  Lemma lca_step_ext s : step p1 pick s = step p2 pick s.
  Proof. unfold step. destruct (nth_error (wl s) (pick (wl s) mod length (wl s))); [|reflexivity]. rewrite E. reflexivity. Qed.

  Lemma lca_run_ext : forall fuel s, run p1 pick fuel s = run p2 pick fuel s.
  Proof.
    induction fuel as [|k IH]; intros s; cbn [run]; destruct (has_candidates s); try reflexivity.
    rewrite lca_step_ext. apply IH.
  Qed.

  Lemma anc_tbl_ext : forall n, anc_tbl p1 n = anc_tbl p2 n.
  Proof. induction n as [|k IH]; cbn [anc_tbl]; [reflexivity|]. rewrite IH, E. reflexivity. Qed.

  Lemma find_lcas_ext n fuel c1 c2s : find_lcas p1 pick n fuel c1 c2s = find_lcas p2 pick n fuel c1 c2s.
  Proof.
    unfold find_lcas. rewrite lca_run_ext. destruct (run p2 pick fuel (init c1 c2s)); [|reflexivity].
    unfold finish, ancb. rewrite anc_tbl_ext. reflexivity.
  Qed.

  Lemma can_fast_forward_ext n fuel c1 c2 : can_fast_forward p1 pick n fuel c1 c2 = can_fast_forward p2 pick n fuel c1 c2.
  Proof. unfold can_fast_forward. rewrite find_lcas_ext. reflexivity. Qed.
End LcaExt.
