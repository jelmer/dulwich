(* Props/C07.v — lock files: mutual exclusion and all-or-nothing replacement.
   Every statement is about every list of writers (committing or aborting) and
   readers, every interleaving of their calls and every placement of faults:
   [run (init t0 l) sched] for arbitrary [sched]. *)
From DV Require Import LockFile LockFileP.

(* at most one actor is between a successful os.open(O_EXCL) and its rename / remove *)
Theorem mutual_exclusion : forall t0 l sched i j, Forall fresh l ->
  let s := run (init t0 l) sched in
  critical (a_pc (acts s i)) = true -> critical (a_pc (acts s j)) = true -> i = j.
Proof. intros t0 l sched i j F s. exact (Lock.owner_unique _ _ i j (lf_lock _ _ (run_inv t0 l sched F))). Qed.
Print Assumptions mutual_exclusion.

(* no call of one actor removes or renames a lock file created by another *)
Theorem no_foreign_unlock : forall t0 l sched i f j c, Forall fresh l -> i <> j ->
  let s := run (init t0 l) sched in
  lockf s = Some (j, c) -> lockf (step s i f) = Some (j, c).
Proof. intros t0 l sched i f j c F N s L. exact (foreign_step_keeps_lock t0 s i f j c (run_inv t0 l sched F) L N). Qed.
Print Assumptions no_foreign_unlock.

(* the protected file is always the initial content or the complete data of an
   actor that committed; so is everything any reader ever saw *)
Theorem whole_file_replacement : forall t0 l sched, Forall fresh l ->
  let s := run (init t0 l) sched in
  (target s = t0 \/ exists j, a_pc (acts s j) = PDone Committed /\ target s = Some (a_data (acts s j))) /\
  forall i v, In v (a_seen (acts s i)) ->
    v = t0 \/ exists j, a_pc (acts s j) = PDone Committed /\ v = Some (a_data (acts s j)).
Proof.
  intros t0 l sched F s. pose proof (run_inv t0 l sched F) as I. split; [exact (lf_target _ _ I)|exact (lf_seen _ _ I)].
Qed.
Print Assumptions whole_file_replacement.

(* the protected file changes only in the one call that commits, to that caller's data:
   an actor that ends locked out, aborted or failed never changed it *)
Theorem failed_write_changes_nothing : forall t0 l sched i f, Forall fresh l ->
  let s := run (init t0 l) sched in
  target (step s i f) <> target s ->
  a_pc (acts (step s i f) i) = PDone Committed /\ target (step s i f) = Some (a_data (acts s i)).
Proof.
  intros t0 l sched i f F s H.
  destruct (target_changes_only_on_commit t0 s i f (run_inv t0 l sched F) (or_introl H)) as (A & _ & B). auto.
Qed.
Print Assumptions failed_write_changes_nothing.

(* whoever has finished — committed, aborted, failed at any call, or locked out — holds no lock *)
Theorem finished_actor_released_lock : forall t0 l sched i o c, Forall fresh l ->
  let s := run (init t0 l) sched in
  a_pc (acts s i) = PDone o -> lockf s <> Some (i, c).
Proof.
  intros t0 l sched i o c F s E L.
  assert (X : critical (a_pc (acts s i)) = true) by (apply (lf_lock _ _ (run_inv t0 l sched F)); fold s; rewrite L; reflexivity).
  rewrite E in X. discriminate.
Qed.
Print Assumptions finished_actor_released_lock.

Example three_writers_one_reader :
  let s := run (init (Some 0%Z) [writer 1 false; writer 2 true; reader; writer 3 false])
               [(0, false); (1, false); (0, false); (2, false); (0, false); (0, true); (0, false); (0, false); (3, false)]%nat in
  Forall fresh [writer 1 false; writer 2 true; reader; writer 3 false] /\ target s = Some 0%Z /\
  a_pc (acts s 0%nat) = PDone Failed /\ a_pc (acts s 3%nat) = PWrite.
Proof.
  split; [repeat (apply Forall_cons; [split; [reflexivity|cbn; auto]|]); apply Forall_nil|vm_compute; auto].
Qed.
