(* Proofs/ReceiveP.v — _apply_pack on distinct refs: the commands do not
   interfere, so every status is the one the command would get alone on the
   initial map (validate), and an atomic push that passes its validation pass
   is the plain push. *)
From DV Require Import Receive.

Lemma rget_rset m r v q : rget q (rset r v m) = if bytes_beq q r then Some v else rget q m.
Proof. exact (kget_kset m r v q). Qed.

Lemma rget_rdel m r q : rget q (rdel r m) = if bytes_beq q r then None else rget q m.
Proof. exact (kget_kdel m r q). Qed.

Definition valid (objs : list bytes) (m : refmap) : Prop :=
  forall r v, rget r m = Some v -> memb v objs = true.

Lemma apply_update_spec m c m' s : apply_update m c = (m', s) ->
  s = (if bytes_beq (cur m (c_ref c)) (c_old c) then SOk else SStale) /\
  (forall q, bytes_beq q (c_ref c) = false -> rget q m' = rget q m) /\
  (s = SOk -> requested c m' = true) /\ (s <> SOk -> m' = m).
Proof.
  unfold apply_update, requested. destruct (bytes_beq (cur m (c_ref c)) (c_old c));
    intros H; inversion H; subst; clear H; (split; [reflexivity|]).
  - destruct (bytes_beq (c_new c) ZERO); (split; [|split; [intros _|contradiction]]).
    + intros q Hq. rewrite rget_rdel, Hq. reflexivity.
    + rewrite rget_rdel, bytes_beq_refl. reflexivity.
    + intros q Hq. rewrite rget_rset, Hq. reflexivity.
    + rewrite rget_rset, bytes_beq_refl. apply bytes_beq_refl.
  - split; [reflexivity|]. split; [discriminate|reflexivity].
Qed.

Lemma apply_update_valid objs m c m' s :
  valid objs m -> check_update objs c = None -> apply_update m c = (m', s) -> valid objs m'.
Proof.
  intros Hv Hc H. unfold apply_update in H. destruct (bytes_beq (cur m (c_ref c)) (c_old c)); [|inversion H; subst; exact Hv].
  unfold check_update in Hc. destruct (bytes_beq (c_new c) ZERO) eqn:Ez.
  - inversion H; subst. intros r v Hr. rewrite rget_rdel in Hr. destruct (bytes_beq r (c_ref c)); [discriminate|]. eapply Hv; eauto.
  - destruct (memb (c_new c) objs) eqn:Em; [|discriminate]. inversion H; subst. intros r v Hr. rewrite rget_rset in Hr.
    destruct (bytes_beq r (c_ref c)); [inversion Hr; subst; exact Em|eapply Hv; eauto].
Qed.

Lemma check_update_refuses objs c e : check_update objs c = Some e -> e <> SOk.
Proof.
  unfold check_update. destruct (bytes_beq (c_new c) ZERO); [discriminate|].
  destruct (memb (c_new c) objs); [discriminate|]. intros H; inversion H. discriminate.
Qed.

Lemma validate_ok objs m c : validate objs m c = SOk -> check_update objs c = None /\ cur m (c_ref c) = c_old c.
Proof.
  unfold validate. destruct (check_update objs c) as [e|] eqn:Ec.
  - intros ->. apply check_update_refuses in Ec. contradiction.
  - destruct (bytes_beq (cur m (c_ref c)) (c_old c)) eqn:E; [|discriminate]. intros _. split; [reflexivity|]. apply bytes_beq_spec. exact E.
Qed.

Lemma validate_frame objs m m1 c : rget (c_ref c) m1 = rget (c_ref c) m -> validate objs m1 c = validate objs m c.
Proof. intros H. unfold validate, cur. rewrite H. reflexivity. Qed.

Lemma plain_step_spec objs m c m1 s :
  match check_update objs c with Some e => (m, e) | None => apply_update m c end = (m1, s) ->
  s = validate objs m c /\
  (forall q, bytes_beq q (c_ref c) = false -> rget q m1 = rget q m) /\
  (s = SOk -> requested c m1 = true) /\ (s <> SOk -> m1 = m).
Proof.
  unfold validate. destruct (check_update objs c) as [e|] eqn:Ec; [|apply apply_update_spec].
  intros H. inversion H; subst. split; [reflexivity|]. split; [reflexivity|]. split; [|reflexivity].
  intros ->. apply check_update_refuses in Ec. contradiction.
Qed.

Lemma run_plain_pointwise objs : forall cs m m' ss,
  NoDup (map c_ref cs) -> run_plain objs m cs = (m', ss) ->
  ss = map (validate objs m) cs /\
  (forall q, ~ In q (map c_ref cs) -> rget q m' = rget q m) /\
  (forall c, In c cs -> (validate objs m c = SOk -> requested c m' = true) /\
                        (validate objs m c <> SOk -> rget (c_ref c) m' = rget (c_ref c) m)).
Proof.
  induction cs as [|c cs IH]; intros m m' ss Hnd H; cbn [run_plain] in H.
  - inversion H; subst. split; [reflexivity|]. split; [reflexivity|intros c []].
  - inversion Hnd as [|? ? Hnin Hnd']; subst.
    destruct (match check_update objs c with Some e => (m, e) | None => apply_update m c end) as [m1 s] eqn:E1.
    destruct (run_plain objs m1 cs) as [m2 ss2] eqn:E2. inversion H; subst; clear H.
    apply plain_step_spec in E1. destruct E1 as (-> & Fr & Ok & Ko).
    destruct (IH m1 m' ss2 Hnd' E2) as (-> & U & P).
    (* the later commands see under their refs what they would have seen in m *)
    assert (Hsame : forall c', In c' cs -> rget (c_ref c') m1 = rget (c_ref c') m).
    { intros c' Hin. apply Fr, bytes_beq_neq. intros E. apply Hnin. rewrite <- E. apply in_map, Hin. }
    split; [|split].
    + cbn [map]. f_equal. apply map_ext_in. intros c' Hin. apply validate_frame, Hsame, Hin.
    + intros q Hq. cbn [map In] in Hq. rewrite U by tauto. apply Fr, bytes_beq_neq. intros ->. tauto.
    + intros c' [<-|Hin].
      * unfold requested in *. rewrite (U _ Hnin). split; [exact Ok|]. intros Hne. rewrite (Ko Hne). reflexivity.
      * rewrite <- (validate_frame objs m m1 c' (Hsame c' Hin)), <- (Hsame c' Hin). apply P, Hin.
Qed.

Lemma run_plain_valid objs : forall cs m m' ss,
  valid objs m -> run_plain objs m cs = (m', ss) -> valid objs m'.
Proof.
  induction cs as [|c cs IH]; intros m m' ss Hv H; cbn [run_plain] in H; [inversion H; subst; exact Hv|].
  destruct (match check_update objs c with Some e => (m, e) | None => apply_update m c end) as [m1 s] eqn:E1.
  destruct (run_plain objs m1 cs) as [m2 ss2] eqn:E2. inversion H; subst; clear H.
  eapply IH; [|exact E2]. destruct (check_update objs c) eqn:Ec; [inversion E1; subst; exact Hv|].
  eapply apply_update_valid; eauto.
Qed.

Lemma apply_all_plain objs : forall cs m applied i,
  forallb is_ok (snd (run_plain objs m cs)) = true ->
  apply_all m cs applied i = (fst (run_plain objs m cs), None).
Proof.
  induction cs as [|c cs IH]; intros m applied i Hok; [reflexivity|]. cbn [apply_all run_plain] in *.
  destruct (check_update objs c) as [e|] eqn:Ec.
  - (* refused: its status is not ok *)
    apply check_update_refuses in Ec. destruct (run_plain objs m cs). destruct e; [contradiction|discriminate..].
  - destruct (apply_update m c) as [m1 s]. specialize (IH m1 (c :: applied) (S i)).
    destruct (run_plain objs m1 cs) as [m2 ss]. cbn [fst snd forallb] in *.
    apply andb_prop in Hok. destruct Hok as [-> Hss]. exact (IH Hss).
Qed.

Lemma all_validated objs m cs :
  forallb is_ok (map (validate objs m) cs) = true -> forall c, In c cs -> validate objs m c = SOk.
Proof.
  rewrite forallb_forall. intros Ev c Hc. specialize (Ev _ (in_map _ _ _ Hc)).
  destruct (validate objs m c); try discriminate. reflexivity.
Qed.

Lemma run_atomic_plain objs m cs : NoDup (map c_ref cs) ->
  run_atomic objs m cs =
  if forallb is_ok (map (validate objs m) cs) then (fst (run_plain objs m cs), map (fun _ => SOk) cs)
  else (m, map (fun s => if is_ok s then SAtomicFailed else s) (map (validate objs m) cs)).
Proof.
  intros Hnd. unfold run_atomic. cbv zeta. destruct (forallb is_ok _) eqn:Ev; [|reflexivity].
  rewrite (apply_all_plain objs); [reflexivity|].
  destruct (run_plain objs m cs) as [m' ss] eqn:E. destruct (run_plain_pointwise objs cs m m' ss Hnd E) as (-> & _). exact Ev.
Qed.

Example ex_receive :
  let a := repeat 97 40 in let b := repeat 98 40 in let c := repeat 99 40 in
  let m := [([1], a); ([2], a)] in
  let cs := [{| c_old := a; c_new := b; c_ref := [1] |}; {| c_old := b; c_new := c; c_ref := [2] |}] in
  snd (apply_pack false [a; b; c] m cs) = [SOk; SStale] /\
  fst (apply_pack false [a; b; c] m cs) = [([1], b); ([2], a)] /\
  apply_pack true [a; b; c] m cs = (m, [SAtomicFailed; SStale]) /\
  snd (apply_pack false [a; b] m [{| c_old := a; c_new := c; c_ref := [1] |}]) = [SMissing].
Proof. vm_compute. repeat split; reflexivity. Qed.
