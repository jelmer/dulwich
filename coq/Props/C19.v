(* Props/C19.v — pkt-line and side-band framing. *)
From DV Require Import PktLine PktLineP.

(* every 16-bit length round-trips through the four-digit prefix *)
Theorem len_prefix_roundtrip : forall n, 0 <= n < 65536 -> parse_len (hex4 n) = Some n.
Proof. exact parse_len_hex4. Qed.
Print Assumptions len_prefix_roundtrip.

(* a payload is either refused (exactly when it exceeds 65516 bytes) or framed
   with a four-hex-digit prefix equal to the frame length, at most 65520 *)
Theorem frame_wellformed_or_refused : forall p,
  (pkt_line (Some p) = WValueError <-> zlen p > MAX_DATA) /\
  (forall f, pkt_line (Some p) = WOk f ->
     zlen f = zlen p + 4 /\ zlen f <= 65520 /\ parse_len (zfirstn 4 f) = Some (zlen f)).
Proof.
  intros p. split; [apply pkt_line_refused|].
  intros f H. apply pkt_line_ok in H. destruct H as [Hl ->]. unfold MAX_DATA in Hl.
  pose proof (zlen_nonneg p). rewrite zlen_app, zlen_hex4, zfirstn_hex4, parse_len_hex4 by lia.
  repeat split; try lia. f_equal; lia.
Qed.
Print Assumptions frame_wellformed_or_refused.

(* encode then decode: every payload sequence (empty payloads included), any trailing bytes *)
Theorem frames_roundtrip : forall ps s rest,
  pkt_seq ps = WOk s -> read_pkt_seq (seq_fuel (s ++ rest)) (s ++ rest) = (ps, SEnd, rest).
Proof.
  intros ps s rest H. apply frames_roundtrip_fuel; [exact H|]. apply pkt_seq_length in H.
  unfold seq_fuel. rewrite app_length. lia.
Qed.
Print Assumptions frames_roundtrip.

(* every byte string fed to the decoder: one of the four outcomes (by type), and
   what was not consumed is a suffix of the input *)
Theorem decoder_consumes_prefix : forall s r tail, read_pkt_line s = (r, tail) -> exists c, s = c ++ tail.
Proof.
  intros s r tail H. destruct (read_pkt_line_rest s) as [n E]. rewrite H in E. cbn [snd] in E. subst tail.
  exists (zfirstn 4 s ++ zfirstn n (zskipn 4 s)). rewrite <- app_assoc, !zfirstn_zskipn. reflexivity.
Qed.
Print Assumptions decoder_consumes_prefix.

(* however recv() chunks the byte stream (any schedule, any buffered prefix),
   ReceivableProtocol.read returns the first `size` bytes of the stream ... *)
Theorem read_schedule_invariant : forall size st out st',
  0 < size -> rp_read size st = (out, st') ->
  out = zfirstn size (stream st) /\ stream st' = zskipn size (stream st).
Proof. exact rp_read_spec. Qed.
Print Assumptions read_schedule_invariant.

(* ... hence read_pkt_line over it is a function of the remaining stream only *)
Theorem read_pkt_line_schedule_invariant : forall st r st',
  rp_read_pkt_line st = (r, st') -> read_pkt_line (stream st) = (r, stream st').
Proof. exact rp_read_pkt_line_spec. Qed.
Print Assumptions read_pkt_line_schedule_invariant.

(* the incremental parser delivers the same events whatever the fragmentation *)
Theorem parser_partition_invariant : forall frags buf,
  D buf = ([], buf, false) ->
  let '(ev, t, e) := pp_feed buf frags in
  let '(ev', t', e') := D (buf ++ concat frags) in
  ev = ev' /\ e = e' /\ (e = false -> t = t').
Proof. exact pp_feed_spec. Qed.
Print Assumptions parser_partition_invariant.

(* side-band: frames carry the channel byte, never exceed one pkt-line, and
   concatenate back to the blob; the demultiplexer returns them *)
Theorem sideband_roundtrip : forall ch blob,
  let fs := write_sideband (sb_fuel blob) ch blob in
  concat (map (@tl Z) fs) = blob /\
  Forall (fun f => 1 <= zlen f <= MAX_DATA /\ hd 0 f = ch) fs /\
  sb_demux fs = Some (map (fun f => (ch, tl f)) fs).
Proof. intros ch blob. apply write_sideband_spec. apply sb_fuel_ok. Qed.
Print Assumptions sideband_roundtrip.

(* the buffered writer emits exactly the concatenation of the pkt-lines *)
Theorem buffered_writer_concat : forall bufsize ps wbuf bl wbuf' bl' outs,
  bw_run bufsize (wbuf, bl) ps = Some ((wbuf', bl'), outs) ->
  exists ls, lines_of ps = Some ls /\ concat outs ++ wbuf' = wbuf ++ ls.
Proof. exact bw_run_concat. Qed.
Print Assumptions buffered_writer_concat.

(* ---------- capability lists and ref advertisement lines (Model/Caps.v) ---------- *)
From DV Require Import Caps CapsP.

(* a ref line carrying any list of capabilities (none included; each a non-empty
   token without NUL or white space) parses back to the id, the name and exactly
   that list *)
Theorem ref_line_with_capabilities_roundtrip : forall sha ref cs,
  valid_hexsha sha = true -> check_ref_format ref = true -> forallb tokenb cs = true ->
  extract_capabilities (format_ref_line ref sha (Some cs)) = Some (sha ++ [SP] ++ ref, cs).
Proof.
  intros sha ref cs Hs Hr Hc. rewrite <- (extract_format_caps _ cs (ref_head_no_nul sha ref Hs Hr) Hc).
  unfold format_ref_line. rewrite <- !app_assoc. reflexivity.
Qed.
Print Assumptions ref_line_with_capabilities_roundtrip.

(* and a ref line without the NUL carries no capabilities *)
Theorem ref_line_without_capabilities : forall sha ref,
  valid_hexsha sha = true -> check_ref_format ref = true ->
  extract_capabilities (format_ref_line ref sha None) = Some ((sha ++ [SP] ++ ref) ++ [LF], []).
Proof.
  intros sha ref Hs Hr. replace (format_ref_line ref sha None) with ((sha ++ [SP] ++ ref) ++ [LF]) by (rewrite <- !app_assoc; reflexivity).
  apply extract_no_nul. rewrite in_app_iff. intros [I|[E|[]]]; [exact (ref_head_no_nul sha ref Hs Hr I)|discriminate].
Qed.
Print Assumptions ref_line_without_capabilities.
