(* Proofs/LcaP.v — _find_lcas returns exactly the maximal common ancestors, for
   every DAG, every query and every order in which the work list is popped *)
From DV Require Import ListFacts Lca.

Lemma memb_In v l : memb v l = true <-> In v l.
Proof. apply mem_nat_In. Qed.

Lemma in_remove_nth {A} i (l : list A) u : In u (remove_nth i l) -> In u l.
Proof.
  unfold remove_nth. rewrite in_app_iff. intros [H|H]; [exact (In_firstn i l u H)|exact (In_skipn (S i) l u H)].
Qed.

Lemma in_split_nth {A} i (l : list A) v u : nth_error l i = Some v -> In u l -> u = v \/ In u (remove_nth i l).
Proof.
  intros Hn. destruct (nth_error_split_at i l v Hn) as (l1 & l2 & E1 & E2).
  unfold remove_nth. rewrite E2, E1. apply in_elt_inv.
Qed.

(* the three flag maps, uniformly: flag_of k is the k-th map of a state, nth_flag k the k-th of
   three flags *)
Definition flag_of (k : nat) (s : st) : node -> bool := match k with 0 => A1 s | 1 => A2 s | _ => DN s end.
Definition nth_flag (k : nat) (p1 p2 pd : bool) : bool := match k with 0 => p1 | 1 => p2 | _ => pd end.

(* pushed k s v: the flags a popped commit v pushes to its parents, its own, and _DNC also when it is a
   candidate *)
Definition is_ca (s : st) (v : node) : bool := A1 s v && A2 s v && negb (DN s v).
Definition pushed (k : nat) (s : st) (v : node) : bool := nth_flag k (A1 s v) (A2 s v) (DN s v || is_ca s v).

Lemma is_ca_spec s v : is_ca s v = true <-> A1 s v = true /\ A2 s v = true /\ DN s v = false.
Proof. unfold is_ca. rewrite !andb_true_iff, negb_true_iff. tauto. Qed.

Lemma flag_of_pushed k s v : flag_of k s v = true -> pushed k s v = true.
Proof. destruct k as [|[|k]]; cbn [flag_of pushed nth_flag]; auto. intros ->. reflexivity. Qed.

Lemma is_ca_ext s s' u : (forall k, flag_of k s' u = flag_of k s u) -> is_ca s' u = is_ca s u.
Proof.
  intros E. pose proof (E 0) as E0. pose proof (E 1) as E1. pose proof (E 2) as E2. cbn [flag_of] in E0, E1, E2.
  unfold is_ca. rewrite E0, E1, E2. reflexivity.
Qed.

Lemma upd_orb f v u : upd f v u = f u || Nat.eqb u v.
Proof. unfold upd. destruct (Nat.eqb u v); [rewrite orb_true_r|rewrite orb_false_r]; reflexivity. Qed.

(* pushing flags to a parent p: p gets them, and is queued unless it had them all; a commit that is not
   queued afterwards was not queued before and has the flags it had *)
Lemma push_parent_spec p1 p2 pd s p : let s' := push_parent p1 p2 pd s p in
  (forall k u, flag_of k s' u = flag_of k s u || (nth_flag k p1 p2 pd && Nat.eqb u p)) /\
  (forall u, ~ In u (wl s') -> ~ In u (wl s) /\ forall k, flag_of k s' u = flag_of k s u) /\
  cands s' = cands s.
Proof.
  unfold push_parent.
  destruct (implb p1 (A1 s p) && implb p2 (A2 s p) && implb pd (DN s p)) eqn:Has; cbn zeta.
  - split; [|split; [intros u H; split; [exact H|reflexivity]|reflexivity]].
    apply andb_prop in Has. destruct Has as [Has G3]. apply andb_prop in Has. destruct Has as [G1 G2].
    intros k u. destruct (nth_flag k p1 p2 pd) eqn:Pk, (Nat.eqb_spec u p) as [->|_]; rewrite ?orb_false_r; try reflexivity.
    destruct k as [|[|k]]; cbn [nth_flag flag_of] in *; subst; cbn [implb] in *; rewrite ?G1, ?G2, ?G3; reflexivity.
  - set (s' := Build_st _ _ _ _ _).
    assert (E : forall k u, flag_of k s' u = flag_of k s u || (nth_flag k p1 p2 pd && Nat.eqb u p)).
    { intros [|[|k]] u; cbn [nth_flag flag_of s' A1 A2 DN]; [destruct p1|destruct p2|destruct pd]; rewrite ?upd_orb, ?orb_false_r; reflexivity. }
    split; [exact E|split; [|reflexivity]]. cbn [wl s' In]. intros u H. split; [tauto|]. intros k. rewrite E.
    destruct (Nat.eqb_spec u p) as [Eu|_]; [symmetry in Eu; tauto|]. rewrite andb_false_r, orb_false_r. reflexivity.
Qed.

Lemma push_fold p1 p2 pd : forall ps s, let s' := fold_left (push_parent p1 p2 pd) ps s in
  (forall k u, flag_of k s' u = flag_of k s u || (nth_flag k p1 p2 pd && memb u ps)) /\
  (forall u, ~ In u (wl s') -> ~ In u (wl s) /\ forall k, flag_of k s' u = flag_of k s u) /\
  cands s' = cands s.
Proof.
  induction ps as [|p ps IH]; intros s; cbn [fold_left].
  - repeat split; [intros k u; rewrite andb_false_r, orb_false_r; reflexivity|assumption].
  - destruct (push_parent_spec p1 p2 pd s p) as (Ef1 & Eo1 & En1).
    destruct (IH (push_parent p1 p2 pd s p)) as (Ef & Eo & En). cbn zeta in *.
    set (s1 := push_parent p1 p2 pd s p) in *. set (s' := fold_left (push_parent p1 p2 pd) ps s1) in *.
    split; [|split; [|congruence]].
    + intros k u. rewrite Ef, Ef1. cbn [memb existsb]. rewrite andb_orb_distrib_r, orb_assoc. reflexivity.
    + intros u H. destruct (Eo u H) as [H1 E]. destruct (Eo1 u H1) as [H0 E1].
      split; [exact H0|intros k; rewrite E; apply E1].
Qed.

Section Dag.
Variable parents : node -> list node.
Variable pick : list node -> nat.
Hypothesis parents_lt : forall v p, In p (parents v) -> p < v.

(* a is an ancestor of (or equal to) v *)
Inductive Anc : node -> node -> Prop :=
| anc_refl v : Anc v v
| anc_step a p v : In p (parents v) -> Anc a p -> Anc a v.

Lemma anc_le a v : Anc a v -> a <= v.
Proof. induction 1 as [|a p v Hp _ IH]; [lia|]. apply parents_lt in Hp. lia. Qed.

Lemma anc_trans a b c : Anc a b -> Anc b c -> Anc a c.
Proof. intros H1 H2. induction H2 as [|b p v Hp _ IH]; [exact H1|]. eapply anc_step; eauto. Qed.

Lemma anc_parent p v : In p (parents v) -> Anc p v.
Proof. intros H. eapply anc_step; [exact H|apply anc_refl]. Qed.

Lemma anc_antisym a b : Anc a b -> Anc b a -> a = b.
Proof. intros H1 H2. apply anc_le in H1. apply anc_le in H2. lia. Qed.

(* one iteration, popping v: the parents of v get the flags v pushes; a commit that is not queued afterwards
   was not queued before, unless it is v, and has the flags it had; v joins the candidates, once, if it is one *)
Lemma step_spec s v : nth_error (wl s) (pick (wl s) mod length (wl s)) = Some v ->
  let s' := step parents pick s in
  (forall k u, flag_of k s' u = flag_of k s u || (pushed k s v && memb u (parents v))) /\
  (forall u, ~ In u (wl s') -> (u <> v -> ~ In u (wl s)) /\ forall k, flag_of k s' u = flag_of k s u) /\
  (forall u, In u (cands s') <-> In u (cands s) \/ u = v /\ is_ca s v = true) /\
  (NoDup (cands s) -> NoDup (cands s')).
Proof.
  intros En. unfold step. rewrite En. cbn zeta. fold (is_ca s v).
  set (s1 := {| A1 := A1 s; wl := remove_nth _ (wl s) |}).
  destruct (push_fold (A1 s v) (A2 s v) (DN s v || is_ca s v) (parents v) s1) as (Ef & Eo & Ecs).
  split; [exact Ef|split].
  - intros u Hu. destruct (Eo u Hu) as [H1 E]. split; [|exact E].
    intros Hne Hin. destruct (in_split_nth _ (wl s) v u En Hin); contradiction.
  - rewrite Ecs. cbn [cands s1].
    destruct (is_ca s v); cbn [andb]; [destruct (memb v (cands s)) eqn:M; cbn [negb]|].
    + apply memb_In in M. split; [|auto]. intros u. split; [auto|intros [H|[-> _]]; assumption].
    + apply mem_nat_notIn in M. split; [|intros N; constructor; assumption].
      intros u. cbn [In]. split; [intros [<-|H]; auto|intros [H|[-> _]]; auto].
    + split; [|auto]. intros u. split; [auto|intros [H|[_ H]]; [exact H|discriminate]].
Qed.

Lemma anc_tbl_length n : length (anc_tbl parents n) = n.
Proof. induction n as [|n IH]; [reflexivity|]. cbn [anc_tbl]. rewrite app_length, IH. cbn. lia. Qed.

(* row v of the table lists the ancestors of v: it is built from the rows of the parents of v, which are
   smaller and so already there *)
Lemma anc_tbl_spec : forall n v a, v < n -> (In a (nth v (anc_tbl parents n) []) <-> Anc a v).
Proof.
  induction n as [|n IH]; intros v a Hv; [lia|]. cbn [anc_tbl].
  destruct (Nat.eq_dec v n) as [->|Hne].
  - rewrite app_nth2, anc_tbl_length, Nat.sub_diag by (rewrite anc_tbl_length; lia). cbn [nth In].
    rewrite in_flat_map. split.
    + intros [<-|(p & Hp & H)]; [apply anc_refl|]. apply IH in H; [|exact (parents_lt _ _ Hp)]. eapply anc_step; eauto.
    + intros H. inversion H as [|a' p v' Hp Ha]; subst; [left; reflexivity|right].
      exists p. split; [exact Hp|]. apply IH; [exact (parents_lt _ _ Hp)|exact Ha].
  - rewrite app_nth1 by (rewrite anc_tbl_length; lia). apply IH. lia.
Qed.

Lemma ancb_spec n a v : v < n -> (ancb parents n a v = true <-> Anc a v).
Proof. intros Hv. unfold ancb. rewrite memb_In. apply anc_tbl_spec. exact Hv. Qed.

(* what the final filter keeps: the candidates that are not _DNC and have no other such candidate above them
   (the table has a row for every commit below n) *)
Lemma finish_In n s x : (forall c, In c (cands s) -> c < n) ->
  (In x (finish parents n s) <->
   (In x (cands s) /\ DN s x = false) /\ forall c, In c (cands s) -> DN s c = false -> Anc x c -> c = x).
Proof.
  intros Hn. unfold finish. set (results := filter (fun c => negb (DN s c)) (cands s)).
  assert (Hres : forall c, In c results <-> In c (cands s) /\ DN s c = false).
  { intros c. unfold results. rewrite filter_In, negb_true_iff. reflexivity. }
  rewrite filter_In, negb_true_iff, <- not_true_iff_false, existsb_exists, Hres. apply and_iff_compat_l. split.
  - intros N c Hc Hd Ha. destruct (Nat.eq_dec c x) as [E|E]; [exact E|]. exfalso. apply N. exists c.
    split; [apply Hres; auto|]. apply andb_true_intro.
    split; [apply negb_true_iff, Nat.eqb_neq; congruence|apply ancb_spec; auto].
  - intros A (c & Hc & E). apply Hres in Hc. destruct Hc as [Hc Hd]. apply andb_prop in E. destruct E as [E1 E2].
    apply negb_true_iff, Nat.eqb_neq in E1. apply E1. symmetry. apply (A c Hc Hd). apply ancb_spec in E2; auto.
Qed.

Section Query.
Variable c1 : node.
Variable c2s : list node.

Definition CA (x : node) : Prop := Anc x c1 /\ exists c, In c c2s /\ Anc x c.
Definition MaxCA (x : node) : Prop := CA x /\ forall y, CA y -> Anc x y -> y = x.

Lemma maxca_self : CA c1 -> forall x, MaxCA x <-> x = c1.
Proof.
  intros Hc x. split.
  - intros [[Hx _] Hm]. symmetry. exact (Hm c1 Hc Hx).
  - intros ->. split; [exact Hc|]. intros y [Hy _] Hcy. apply anc_antisym; assumption.
Qed.

(* what flag k at v stands for; each of the three is inherited by parents *)
Definition Sem (k : nat) (v : node) : Prop :=
  match k with
  | 0 => Anc v c1
  | 1 => exists c, In c c2s /\ Anc v c
  | _ => exists x, CA x /\ Anc v x /\ v <> x
  end.

Lemma sem_down k v p : In p (parents v) -> Sem k v -> Sem k p.
Proof.
  intros Hp. pose proof (anc_parent _ _ Hp) as A. destruct k as [|[|k]]; cbn [Sem].
  - apply anc_trans. exact A.
  - intros (c & Hc & H). exists c. split; [exact Hc|eapply anc_trans; eauto].
  - intros (x & Hx & H & _). exists x. split; [exact Hx|]. split; [eapply anc_trans; eauto|].
    apply parents_lt in Hp. apply anc_le in H. lia.
Qed.

Record lca_inv (s : st) : Prop := {
  lca_sound : forall k v, flag_of k s v = true -> Sem k v;
  (* the parents of a commit that is not queued have its flags; no more is needed: that a candidate hands
     _DNC down as well is what lets the loop stop early, the result does not rest on it *)
  lca_prop : forall v, ~ In v (wl s) -> forall p, In p (parents v) ->
             forall k, flag_of k s v = true -> flag_of k s p = true;
  lca_cand : forall v, ~ In v (wl s) -> is_ca s v = true -> In v (cands s);
  lca_cands : forall v, In v (cands s) -> CA v;
  lca_start : A1 s c1 = true /\ forall c, In c c2s -> A2 s c = true;
  lca_nodup : NoDup (cands s)
}.

Lemma ca_sound s v : lca_inv s -> is_ca s v = true -> CA v.
Proof. intros Hinv H. apply is_ca_spec in H. split; [apply (lca_sound s Hinv 0)|apply (lca_sound s Hinv 1)]; apply H. Qed.

(* a flag pushed by v stands for the right thing at a parent of v *)
Lemma sem_push s v p k : lca_inv s -> In p (parents v) -> pushed k s v = true -> Sem k p.
Proof.
  intros Hinv Hp H. destruct k as [|[|k]]; cbn [pushed nth_flag] in H.
  - (* ancestor of c1 *) apply (sem_down 0 v p Hp), (lca_sound s Hinv), H.
  - (* ancestor of one of c2s *) apply (sem_down 1 v p Hp), (lca_sound s Hinv), H.
  - (* _DNC: v had it, or v is a candidate and p lies strictly below it *)
    apply orb_prop in H. destruct H as [H|H]; [apply (sem_down 2 v p Hp), (lca_sound s Hinv 2), H|].
    exists v. split; [exact (ca_sound s v Hinv H)|]. split; [apply anc_parent, Hp|]. apply parents_lt in Hp. lia.
Qed.

Lemma init_inv : lca_inv (init c1 c2s).
Proof.
  assert (Q : forall v, ~ In v (rev c2s ++ [c1]) -> upd (fun _ => false) c1 v = false /\ memb v c2s = false).
  { intros v Hv. rewrite in_app_iff, <- in_rev in Hv. cbn [In] in Hv. rewrite upd_orb. split.
    - apply Nat.eqb_neq. intros ->. tauto.
    - apply mem_nat_notIn. tauto. }
  constructor; cbn [init A1 A2 DN wl cands].
  - intros [|[|k]] v; cbn [flag_of Sem init A1 A2 DN]; [| |discriminate].
    + rewrite upd_orb. intros H. apply Nat.eqb_eq in H. subst. apply anc_refl.
    + intros H. apply memb_In in H. exists v. split; [exact H|apply anc_refl].
  - intros v Hv p _ k. destruct (Q v Hv) as [N1 N2]. destruct k as [|[|k]]; cbn [flag_of init A1 A2 DN]; congruence.
  - intros v Hv H. apply is_ca_spec in H. cbn [init A1] in H. destruct (Q v Hv). destruct H. congruence.
  - intros v [].
  - split; [rewrite upd_orb; apply Nat.eqb_refl|]. intros c Hc. apply memb_In. exact Hc.
  - constructor.
Qed.

Lemma step_inv s : lca_inv s -> lca_inv (step parents pick s).
Proof.
  intros Hinv. destruct (nth_error (wl s) (pick (wl s) mod length (wl s))) as [v|] eqn:En;
    [|unfold step; rewrite En; exact Hinv].
  destruct (step_spec s v En) as (Ef & Eo & Ecs & End). set (s' := step parents pick s) in *. cbn zeta in *.
  pose proof Hinv as [Is Ip Ic Ics [St1 St2] Ind].
  assert (Mono : forall k u, flag_of k s u = true -> flag_of k s' u = true) by (intros k u H; rewrite Ef, H; reflexivity).
  constructor.
  - intros k u H. rewrite Ef in H. apply orb_prop in H. destruct H as [H|H]; [apply Is; exact H|].
    apply andb_prop in H. destruct H as [Hp Hin]. apply memb_In in Hin. exact (sem_push s v u k Hinv Hin Hp).
  - intros u Hu p Hp k H. destruct (Eo u Hu) as [Off E]. rewrite E in H.
    destruct (Nat.eq_dec u v) as [->|Hne].
    + rewrite Ef, (flag_of_pushed k s v H), (proj2 (memb_In _ _) Hp). apply orb_true_r.
    + apply Mono. exact (Ip u (Off Hne) p Hp k H).
  - intros u Hu H. destruct (Eo u Hu) as [Off E]. rewrite (is_ca_ext s s' u E) in H. apply Ecs.
    destruct (Nat.eq_dec u v) as [->|Hne]; [right; auto|left; exact (Ic u (Off Hne) H)].
  - intros u Hu. apply Ecs in Hu. destruct Hu as [Hu|[-> Hu]]; [exact (Ics u Hu)|exact (ca_sound s v Hinv Hu)].
  - split; [apply (Mono 0); exact St1|]. intros c Hc. apply (Mono 1). apply St2. exact Hc.
  - exact (End Ind).
Qed.

Lemma run_inv : forall fuel s s',
  lca_inv s -> run parents pick fuel s = Some s' -> lca_inv s' /\ has_candidates s' = false.
Proof.
  induction fuel as [|f IH]; intros s s' Hinv H; cbn [run] in H; destruct (has_candidates s) eqn:E.
  - (* candidates left, no fuel *) discriminate.
  - (* none left *) inversion H; subst; auto.
  - (* candidates left: one step *) exact (IH _ _ (step_inv s Hinv) H).
  - (* none left *) inversion H; subst; auto.
Qed.

Section Final.
Variable s : st.
Hypothesis Hinv : lca_inv s.
Hypothesis Hterm : has_candidates s = false.

Lemma not_dn_off u : DN s u = false -> ~ In u (wl s).
Proof.
  intros E H. unfold has_candidates in Hterm. apply not_true_iff_false in Hterm. apply Hterm.
  apply existsb_exists. exists u. rewrite E. auto.
Qed.

(* a flag set at b has travelled down to every ancestor y of b, unless a commit on the way is _DNC
   (only those may still be queued) *)
Lemma flag_down k b y : Anc y b -> flag_of k s b = true -> flag_of k s y = true \/ exists v, Anc y v /\ DN s v = true.
Proof.
  induction 1 as [v|a p v Hp Ha IH]; intros Hv; [left; exact Hv|].
  destruct (DN s v) eqn:E; [right; exists v; split; [eapply anc_step; eauto|exact E]|].
  apply IH. exact (lca_prop s Hinv v (not_dn_off v E) p Hp k Hv).
Qed.

(* every common ancestor y lies below a candidate that is not _DNC: if y or a commit between y and the
   starting points is _DNC, a common ancestor strictly above y exists and we climb; otherwise both flags
   have reached y and it is a candidate itself *)
Lemma ca_below_result : forall y, CA y -> exists M, In M (cands s) /\ DN s M = false /\ Anc y M.
Proof.
  intros y. remember (c1 - y) as d eqn:Ed. revert y Ed. induction d as [d IH] using lt_wf_ind. intros y Ed Hy.
  assert (Up : forall v, Anc y v -> DN s v = true -> exists M, In M (cands s) /\ DN s M = false /\ Anc y M).
  { intros v Hyv Hd. destruct (lca_sound s Hinv 2 v Hd) as (x & Hx & Hvx & Hne).
    assert (L : c1 - x < d). { destruct Hx as [Hx _]. apply anc_le in Hyv, Hvx, Hx. lia. }
    destruct (IH _ L x eq_refl Hx) as (M & HM & HMd & HxM). exists M. split; [exact HM|]. split; [exact HMd|].
    eapply anc_trans; [exact Hyv|]. eapply anc_trans; eauto. }
  destruct (lca_start s Hinv) as [S1 S2]. destruct Hy as [H1 (c & Hc & H2)].
  destruct (flag_down 0 c1 y H1 S1) as [F1|(v & Hv & Hd)]; [|exact (Up v Hv Hd)].
  destruct (flag_down 1 c y H2 (S2 c Hc)) as [F2|(v & Hv & Hd)]; [|exact (Up v Hv Hd)].
  destruct (DN s y) eqn:E; [exact (Up y (anc_refl y) E)|].
  exists y. split; [|split; [exact E|apply anc_refl]]. apply (lca_cand s Hinv); [exact (not_dn_off y E)|apply is_ca_spec; auto].
Qed.

Lemma finish_exact n : c1 < n -> (forall x, In x (finish parents n s) <-> MaxCA x).
Proof.
  intros Hn x.
  rewrite finish_In by (intros c Hc; destruct (lca_cands s Hinv c Hc) as [Hc1 _]; apply anc_le in Hc1; lia).
  split.
  - intros [[Hxc Hxd] Hf]. split; [apply (lca_cands s Hinv); exact Hxc|].
    intros y Hy Hxy. destruct (ca_below_result y Hy) as (M & HM & HMd & HyM).
    assert (E : M = x) by (apply Hf; [exact HM|exact HMd|eapply anc_trans; eauto]). subst M. apply anc_antisym; assumption.
  - intros [Hca Hmax]. destruct (ca_below_result x Hca) as (M & HM & HMd & HxM).
    assert (E : M = x) by (apply Hmax; [apply (lca_cands s Hinv); exact HM|exact HxM]). subst M. split; [auto|].
    intros c Hc _ Ha. apply Hmax; [|exact Ha]. apply (lca_cands s Hinv). exact Hc.
Qed.
End Final.

Theorem find_lcas_spec n fuel l :
  c1 < n -> find_lcas parents pick n fuel c1 c2s = Some l -> NoDup l /\ forall x, In x l <-> MaxCA x.
Proof.
  intros Hn H. unfold find_lcas in H.
  destruct (run parents pick fuel (init c1 c2s)) as [s|] eqn:E; [|discriminate]. inversion H; subst.
  destruct (run_inv fuel _ _ init_inv E) as [Hinv T]. split; [|apply finish_exact; assumption].
  unfold finish. apply NoDup_filter. apply NoDup_filter. apply (lca_nodup s Hinv).
Qed.

Corollary find_lcas_self n fuel l :
  c1 < n -> find_lcas parents pick n fuel c1 c2s = Some l -> (l = [c1] <-> CA c1).
Proof.
  intros Hn H. destruct (find_lcas_spec n fuel l Hn H) as [ND X]. split.
  - intros ->. apply (X c1). left. reflexivity.
  - intros Hc. apply NoDup_singleton; [exact ND|]. intros x. rewrite X. apply maxca_self. exact Hc.
Qed.
End Query.

Lemma can_fast_forward_exact n fuel c1 c2 b :
  c1 < n -> can_fast_forward parents pick n fuel c1 c2 = Some b -> (b = true <-> Anc c1 c2).
Proof.
  intros Hn H. unfold can_fast_forward in H. destruct (Nat.eqb_spec c1 c2) as [->|_].
  - inversion H; subst. split; [intros _; apply anc_refl|reflexivity].
  - destruct (find_lcas parents pick n fuel c1 [c2]) as [l|] eqn:El; [|discriminate].
    assert (E : b = true <-> l = [c1]).
    { destruct l as [|x [|y l]]; inversion H; subst; try (split; discriminate). rewrite Nat.eqb_eq. split; [intros ->|intros [= ->]]; reflexivity. }
    rewrite E, (find_lcas_self c1 [c2] n fuel l Hn El). split.
    + intros [_ (c & [<-|[]] & Hc)]. exact Hc.
    + intros Ha. split; [apply anc_refl|]. exists c2. split; [left; reflexivity|exact Ha].
Qed.
End Dag.

(* non-vacuity, on the history 0<-2<-3, 1 a second root, 4 a merge of 0 and 3: the merge base of 3 and 4
   is 3, in two pop orders and within lca_fuel; 3 fast-forwards to 4 and 4 does not to 3 *)
Definition ex_parents (v : node) : list node :=
  match v with 2 => [0] | 3 => [2] | 4 => [0; 3] | _ => [] end.
Example ex_lca :
  find_lcas ex_parents (fun l => length l) 5 (lca_fuel 5 [4]) 3 [4] = Some [3] /\
  find_lcas ex_parents (fun _ => 0) 5 (lca_fuel 5 [4]) 3 [4] = Some [3] /\
  can_fast_forward ex_parents (fun _ => 0) 5 (lca_fuel 5 [4]) 3 4 = Some true /\
  can_fast_forward ex_parents (fun _ => 0) 5 (lca_fuel 5 [3]) 4 3 = Some false.
Proof. vm_compute. repeat split; reflexivity. Qed.
