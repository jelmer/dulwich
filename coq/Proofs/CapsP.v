(* Proofs/CapsP.v — capability lists and ref lines survive formatting and parsing *)
From DV Require Import PackedFileP Caps.
From DV Require Sep.

Definition clean (l : bytes) : Prop := Forall (fun b => is_space b = false /\ (b =? NUL) = false) l.

Lemma clean_app a b : clean a -> clean b -> clean (a ++ b).
Proof. intros. apply Forall_app. auto. Qed.

Lemma clean_notin l c : clean l -> is_space c = true \/ c = NUL -> ~ In c l.
Proof.
  intros C H I. unfold clean in C. rewrite Forall_forall in C. destruct (C c I) as [A B].
  destruct H as [H| ->]; [congruence|discriminate].
Qed.

Lemma token_clean c : tokenb c = true -> clean c /\ c <> [].
Proof.
  unfold tokenb. intros H. apply andb_prop in H. destruct H as [N F]. split; [|intros ->; discriminate].
  apply Forall_forall. intros b Hb. rewrite forallb_forall in F. specialize (F b Hb). apply andb_prop in F.
  rewrite !negb_true_iff in F. exact F.
Qed.

(* the separator is an argument of split_on_f's fix, of Sep.split a parameter *)
Lemma split_on_f_eq c : forall l cur, split_on_f c l cur = Sep.split c l cur.
Proof. induction l as [|x l IH]; intros cur; cbn; [|rewrite !IH]; reflexivity. Qed.

Lemma split_on_app c a rest : ~ In c a -> split_on c (a ++ c :: rest) = a :: split_on c rest.
Proof. unfold split_on. rewrite !split_on_f_eq. exact (Sep.split_cons c a rest []). Qed.

Lemma split_on_none c a : ~ In c a -> split_on c a = [a].
Proof. unfold split_on. rewrite split_on_f_eq. exact (Sep.split_last c a []). Qed.

(* " c1 c2 ... cn" after a separator-free start *)
Lemma split_format_caps : forall cs a, ~ In SP a -> Forall clean cs -> split_on SP (a ++ format_caps cs) = a :: cs.
Proof.
  induction cs as [|c cs IH]; intros a N F.
  - cbn. rewrite app_nil_r. apply split_on_none, N.
  - inversion F as [|? ? C F']; subst. change (format_caps (c :: cs)) with (SP :: c ++ format_caps cs).
    rewrite split_on_app by exact N. f_equal.
    apply IH; [apply clean_notin; [exact C|left; reflexivity]|exact F'].
Qed.

Definition nonspace (x : Z) : Prop := is_space x = false.

(* strip() takes white space off both ends and nothing else; [hd SP m] is a space when m is empty *)
Lemma strip_spec pre m post text :
  text = pre ++ m ++ post -> forallb is_space pre = true -> forallb is_space post = true ->
  is_space (hd SP m) = false -> ends nonspace m -> strip text = m.
Proof.
  intros -> Pre Post X E. unfold strip, rstrip. rewrite app_assoc, rtrim_app; [|apply ends_app, E|exact Post].
  induction pre as [|y pre IH]; cbn [app]; [destruct m; [discriminate|]; cbn [drop_while hd] in *; rewrite X; reflexivity|].
  cbn in Pre. apply andb_prop in Pre. destruct Pre as [Y Pre]. cbn [drop_while]. rewrite Y. apply IH, Pre.
Qed.

Lemma clean_ends c : clean c -> c <> [] -> ends nonspace c.
Proof. intros C NE. apply ends_all; [exact NE|]. unfold clean in C. rewrite Forall_forall in C. intros x I. apply C, I. Qed.

Lemma format_caps_ends a cs : ends nonspace a -> Forall (fun c => clean c /\ c <> []) cs -> ends nonspace (a ++ format_caps cs).
Proof.
  intros A F. destruct cs as [|c cs _] using rev_ind; [rewrite app_nil_r; exact A|].
  apply Forall_app in F. destruct F as [_ F]. inversion F as [|? ? [C NE] _]; subst.
  unfold format_caps. rewrite flat_map_app. cbn [flat_map]. rewrite app_nil_r.
  apply ends_app, ends_app, (ends_app _ [SP]), clean_ends; assumption.
Qed.

Lemma format_caps_no_nul cs : Forall clean cs -> ~ In NUL (format_caps cs).
Proof.
  intros F I. apply in_flat_map in I. destruct I as (c & Ic & [E|I]); [discriminate|].
  rewrite Forall_forall in F. revert I. apply clean_notin; [apply F, Ic|right; reflexivity].
Qed.

Lemma extract_format_caps a cs : ~ In NUL a -> forallb tokenb cs = true ->
  extract_capabilities (a ++ [NUL] ++ format_caps cs ++ [LF]) = Some (a, cs).
Proof.
  intros NA Hc. assert (TOK : Forall (fun c => clean c /\ c <> []) cs).
  { apply Forall_forall. intros c I. rewrite forallb_forall in Hc. apply token_clean, Hc, I. }
  assert (CL : Forall clean cs) by (eapply Forall_impl; [|exact TOK]; intros c [C _]; exact C).
  unfold extract_capabilities. rewrite (proj2 (has_byte NUL _)) by (rewrite !in_app_iff; right; left; left; reflexivity).
  cbn [negb]. rewrite !app_assoc. unfold rstrip.
  rewrite rtrim_app; [|apply format_caps_ends; [exists a, NUL; split; reflexivity|exact TOK]|reflexivity].
  rewrite <- app_assoc. cbn [app]. rewrite split_on_app, split_on_none; [|apply format_caps_no_nul, CL|exact NA].
  destruct TOK as [|c cs' [C NE] T]; [reflexivity|]. destruct c as [|x c]; [contradiction|].
  rewrite (strip_spec [SP] ((x :: c) ++ format_caps cs') []); try reflexivity.
  - rewrite split_format_caps; [reflexivity| |inversion CL; assumption]. apply clean_notin; [exact C|left; reflexivity].
  - rewrite app_nil_r. reflexivity.
  - inversion C as [|? ? [X _] _]. exact X.
  - apply (format_caps_ends (x :: c)); [apply clean_ends|]; assumption.
Qed.

Lemma extract_no_nul text : ~ In NUL text -> extract_capabilities text = Some (text, []).
Proof.
  intros N. unfold extract_capabilities. destruct (existsb _ text) eqn:E; [|reflexivity].
  apply has_byte in E. contradiction.
Qed.

Lemma ref_head_no_nul sha ref : valid_hexsha sha = true -> check_ref_format ref = true -> ~ In NUL (sha ++ [SP] ++ ref).
Proof. intros Hs Hr. apply sha_name_notin; [exact Hs|exact Hr|reflexivity|reflexivity|discriminate]. Qed.
