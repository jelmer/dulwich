(* Props/C01.v — object ids and serialisation. *)
From DV Require Import Objects ObjectsP.

(* the id (and the raw bytes) observed after any sequence of field edits,
   raw-content replacements and observations always belong to the current field
   values: the _needs_serialization / _chunked_text / _sha cache is coherent *)
Theorem id_is_hash_of_current_fields : forall ops,
  Forall (fun p => fst p = snd p) (crun cache_init ops).
Proof. intros ops. apply crun_exact, cinv_init. Qed.
Print Assumptions id_is_hash_of_current_fields.

(* commit / tag text: any list of headers (multi-line values folded with a
   leading space: mergetag, gpgsig, extra headers) and any body read back as
   the same headers in the same order and the same body *)
Theorem message_roundtrip : forall hs body,
  Forall (fun h => key_ok (fst h)) hs ->
  parse_message (format_message hs body) =
  map (fun h => PHeader (fst h) (snd h)) hs ++ [PBody (Some (match body with Some b => b | None => [] end))].
Proof. intros hs body Hall. destruct body; apply (message_roundtrip_open _ hs Hall None []). Qed.
Print Assumptions message_roundtrip.

(* trees: entries written with "%04o" modes are read back unchanged by
   parse_tree (either twin, see C15), for every name without NUL, every 32-bit
   mode and both id lengths *)
Theorem tree_roundtrip : forall sha_len es fuel,
  Forall (entry_ok sha_len) es -> (length es < fuel)%nat ->
  py_parse_tree fuel sha_len false (serialize_tree es) = Some es.
Proof. exact parse_serialize_tree. Qed.
Print Assumptions tree_roundtrip.

(* ---------- author / committer / tagger lines (Model/TimeEntry.v) ---------- *)
From DV Require Import TimeEntry TimeEntryP.

(* every time zone git emits — a whole number of minutes, with "-0000" as the
   only use of the minus sign on a non-negative offset — is written and read back
   unchanged, whatever its size *)
Theorem timezone_roundtrip_git_spellings : forall offset neg, offset mod 60 = 0 -> (neg = true -> offset = 0) ->
  exists t, format_timezone offset neg = Some t /\ parse_timezone t = Some (offset, neg).
Proof. intros offset neg M N. destruct (timezone_roundtrip offset neg M N) as (t & F & P & _). eauto. Qed.
Print Assumptions timezone_roundtrip_git_spellings.

(* and so is the whole line: an identity ending in '>', any time stamp (negative,
   beyond 2^32), any such zone *)
Theorem time_entry_line_roundtrip : forall p time tz neg, tz mod 60 = 0 -> (neg = true -> tz = 0) ->
  exists v, format_time_entry (p ++ [GT]) time tz neg = Some v /\ parse_time_entry v = TOk (p ++ [GT]) time tz neg.
Proof. exact time_entry_roundtrip. Qed.
Print Assumptions time_entry_line_roundtrip.

(* outside git's spellings the minus flag on a positive offset that is no multiple
   of half an hour does not survive ("--" zones come only from broken commits) *)
Example minus_flag_on_one_minute_is_lost :
  format_timezone 60 true = Some [45; 48; 48; 53; 57] /\ parse_timezone [45; 48; 48; 53; 57] = Some (-3540, false).
Proof. vm_compute. split; reflexivity. Qed.
