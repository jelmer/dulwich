(* Proofs/PackIdxP.v — the offset tables and the name lookup of a pack index.
   The lookup is exact because the fan-out brackets the positions that share
   the probe's first byte (fan_index) and the bisection, given a sorted table,
   finds a name wherever it stands in the range it is given. *)
From DV Require Import RustTwinsP PackIdx.

Lemma enc_offsets_cons o r large :
  enc_offsets (o :: r) large =
  let '(t, l) := enc_offsets r (if o <? 2147483648 then large else large ++ [o]) in
  ((if o <? 2147483648 then o else 2147483648 + zlen large) :: t, l).
Proof. cbn [enc_offsets]. destruct (o <? 2147483648); reflexivity. Qed.

(* The large table only grows at its end, so a position handed out earlier keeps
   its meaning.  That the entries fit 32 bits (offsets non-negative, fewer than
   2^31 large ones) plays no part in this. *)
Lemma enc_offsets_spec : forall offs large,
  let '(t, l) := enc_offsets offs large in
  zlen t = zlen offs /\ (exists ext, l = large ++ ext) /\
  forall i, 0 <= i < zlen offs -> dec_offset t l i = nth (Z.to_nat i) offs 0.
Proof.
  induction offs as [|o offs IH]; intros large.
  - cbn. repeat split; [exists []; symmetry; apply app_nil_r|]. intros i Hi. change (zlen (@nil Z)) with 0 in Hi. lia.
  - rewrite enc_offsets_cons. set (large' := if o <? 2147483648 then large else large ++ [o]).
    specialize (IH large'). destruct (enc_offsets offs large') as [t l]. destruct IH as (I1 & (ext & ->) & I3).
    rewrite !zlen_cons. split; [lia|]. split.
    + subst large'. destruct (o <? 2147483648); [exists ext; reflexivity|].
      exists (o :: ext). rewrite <- app_assoc. reflexivity.
    + intros i Hi. unfold dec_offset. destruct (Z.eq_dec i 0) as [->|Hnz].
      * cbn [Z.to_nat nth]. subst large'. pose proof (zlen_nonneg large). destruct (o <? 2147483648) eqn:E.
        -- replace (2147483648 <=? o) with false by lia. reflexivity.
        -- replace (2147483648 <=? 2147483648 + zlen large) with true by lia.
           replace (2147483648 + zlen large - 2147483648) with (zlen large) by lia.
           unfold zlen. rewrite Nat2Z.id, <- app_assoc. apply nth_middle.
      * rewrite !nth_Z_cons by lia. apply I3. lia.
Qed.

Definition wf_names (names : list bytes) : Prop := Forall (fun n => n <> [] /\ Forall (fun c => 0 <= c) n) names.
Definition sorted_names (names : list bytes) : Prop :=
  forall i j, 0 <= i -> i < j -> j < zlen names -> bytes_cmp (name_at names i) (name_at names j) = OLt.

Lemma name_at_cons x r k : 0 < k -> name_at (x :: r) k = name_at r (k - 1).
Proof. apply nth_Z_cons. Qed.

Lemma sorted_names_tail x r : sorted_names (x :: r) -> sorted_names r.
Proof.
  intros H i j Hi Hij Hj. specialize (H (i + 1) (j + 1) ltac:(lia) ltac:(lia) ltac:(rewrite zlen_cons; lia)).
  rewrite !name_at_cons in H by lia. replace (i + 1 - 1) with i in H by lia. replace (j + 1 - 1) with j in H by lia. exact H.
Qed.

Lemma bisect_sound name sha : forall fuel lo hi i,
  py_bisect fuel name sha lo hi = BFound i -> lo <= i <= hi /\ name i = sha.
Proof.
  induction fuel as [|f IH]; intros lo hi i H; cbn [py_bisect] in H; [discriminate|].
  destruct (lo >? hi) eqn:E; [discriminate|].
  destruct (bytes_cmp (name ((lo + hi) / 2)) sha) eqn:Ec.
  - apply IH in H. split; [lia|apply H].
  - injection H as <-. split; [lia|]. apply bytes_cmp_eq. exact Ec.
  - apply IH in H. split; [lia|apply H].
Qed.

(* where the midpoint stands relative to k decides the comparison *)
Lemma bisect_complete names : sorted_names names -> forall fuel lo hi k,
  0 <= lo -> lo <= k <= hi -> hi < zlen names -> hi - lo < Z.of_nat fuel ->
  py_bisect fuel (name_at names) (name_at names k) lo hi = BFound k.
Proof.
  intros Hs. induction fuel as [|f IH]; intros lo hi k Hlo Hk Hhi Hf; [lia|].
  cbn [py_bisect]. replace (lo >? hi) with false by lia.
  set (i := (lo + hi) / 2). assert (Hi : lo <= i <= hi) by (unfold i; lia).
  destruct (Z.lt_trichotomy i k) as [Hlt|[->|Hgt]].
  - rewrite (Hs i k) by lia. apply IH; lia.
  - rewrite bytes_cmp_refl. reflexivity.
  - rewrite (bytes_cmp_flip _ _ _ (Hs k i ltac:(lia) Hgt ltac:(lia))). apply IH; lia.
Qed.

Lemma fan_cons x r v : fan (x :: r) v = (if first_byte x <=? v then 1 else 0) + fan r v.
Proof. unfold fan. cbn [filter]. destruct (first_byte x <=? v); [rewrite zlen_cons; lia|lia]. Qed.

Lemma fan_bounds names v : 0 <= fan names v <= zlen names.
Proof.
  induction names as [|x r IH]; [unfold fan; cbn; lia|]. rewrite fan_cons, zlen_cons. destruct (first_byte x <=? v); lia.
Qed.

Lemma fan_all_greater r v : Forall (fun n => v < first_byte n) r -> fan r v = 0.
Proof.
  induction 1 as [|x r Hx _ IH]; [reflexivity|]. rewrite fan_cons, IH. replace (first_byte x <=? v) with false by lia. reflexivity.
Qed.

Lemma bytes_cmp_first a b : a <> [] -> bytes_cmp a b = OLt -> first_byte a <= first_byte b.
Proof.
  intros Ha H. destruct a as [|x a]; [contradiction|]. destruct b as [|y b]; [discriminate|].
  apply bytes_cmp_cons_lt in H. cbn [first_byte]. lia.
Qed.

(* first bytes do not decrease along a sorted table, so the names counted by
   fan names v are the first fan names v of them *)
Lemma fan_index : forall (names : list bytes) v k, Forall (fun n => n <> []) names -> sorted_names names -> 0 <= k < zlen names ->
  (k < fan names v <-> first_byte (name_at names k) <= v).
Proof.
  induction names as [|x r IH]; intros v k Hw Hs Hk; [change (zlen (@nil bytes)) with 0 in Hk; lia|].
  inversion Hw as [|? ? Hx Hw']; subst. specialize (IH v). pose proof (sorted_names_tail _ _ Hs) as Hs'.
  rewrite zlen_cons in Hk. rewrite fan_cons. pose proof (fan_bounds r v).
  (* were r to count a name, it would count its first (IH), whose first byte is not below x's *)
  assert (Hz : v < first_byte x -> fan r v = 0).
  { intros Hv. destruct (Z.eq_dec (fan r v) 0) as [Hf|Hf]; [exact Hf|exfalso].
    pose proof (Hs 0 1 ltac:(lia) ltac:(lia) ltac:(rewrite zlen_cons; lia)) as C.
    apply (bytes_cmp_first x _ Hx) in C. rewrite name_at_cons in C by lia. change (1 - 1) with 0 in C.
    specialize (IH 0 Hw' Hs'). lia. }
  destruct (Z.eq_dec k 0) as [->|Hnz].
  - change (name_at (x :: r) 0) with x. destruct (first_byte x <=? v) eqn:E; [|rewrite Hz]; lia.
  - rewrite name_at_cons by lia. specialize (IH (k - 1) Hw' Hs' ltac:(lia)).
    destruct (first_byte x <=? v) eqn:E; [|rewrite Hz in * by lia]; lia.
Qed.

(* wf_names is the domain the property is stated on; the lookup needs this much of it: every name has a first byte *)
Lemma idx_lookup_spec (names : list bytes) sha :
  Forall (fun n => n <> []) names -> sorted_names names ->
  forall i, idx_lookup names sha = Some i <-> 0 <= i < zlen names /\ name_at names i = sha.
Proof.
  intros Hw Hs i. unfold idx_lookup.
  set (b := first_byte sha). set (start := if b =? 0 then 0 else fan names (b - 1)). set (end_ := fan names b).
  assert (Hst : 0 <= start) by (unfold start; destruct (b =? 0); [lia|apply fan_bounds]).
  assert (Hen : end_ <= zlen names) by apply fan_bounds.
  split.
  - destruct (start >=? end_) eqn:E; [discriminate|].
    destruct (py_bisect _ _ _ _ _) eqn:Eb; try discriminate.
    intros [= ->]. apply bisect_sound in Eb. split; [lia|apply Eb].
  - intros [Hi Hn]. assert (Hb : first_byte (name_at names i) = b) by (rewrite Hn; reflexivity).
    pose proof (fan_index names b i Hw Hs Hi) as F1. pose proof (fan_index names (b - 1) i Hw Hs Hi) as F0.
    assert (Hr : start <= i < end_) by (unfold start, end_; destruct (b =? 0); lia).
    replace (start >=? end_) with false by lia. subst sha.
    rewrite (bisect_complete names Hs); [reflexivity|lia..|unfold zlen in *; lia].
Qed.

Example ex_idx :
  let names := [[1;5]; [1;9]; [7;0]; [255;1]; [255;254]] in
  map (idx_lookup names) [[1;9]; [255;254]; [255;255]; [0;0]; [7;0]; [8;8]] = [Some 1; Some 4; None; None; Some 2; None].
Proof. vm_compute. reflexivity. Qed.
