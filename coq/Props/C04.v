(* Props/C04.v — hostile delta graphs are contained. *)
From DV Require Import DeltaGraph DeltaGraphP.

(* resolving the entries of a pack always terminates within [length es]
   iterations, whatever the base pointers are (self references, cycles, bases
   that are no entry of the pack) *)
Theorem delta_resolution_terminates : forall es, resolve es <> None.
Proof. intros es. destruct (resolve_spec es) as (r & _ & _ & [[E _]|[E _]]); rewrite E; discriminate. Qed.
Print Assumptions delta_resolution_terminates.

(* it succeeds exactly when every entry's chain of bases ends in a full object,
   and then every entry is resolved; otherwise some entry has a chain that never
   does (a delta to itself, a cycle, a missing base) and the pack is refused *)
Theorem delta_resolution_exact : forall es,
  (forall r, resolve es = Some (Some r) ->
     (forall i, i < length es -> exists k, reaches es k i = true) /\ (forall i, In i r <-> i < length es)) /\
  (resolve es = Some None -> exists i, i < length es /\ forall k, reaches es k i = false).
Proof.
  intros es. destruct (resolve_spec es) as (r & _ & F & [[E A]|[E (i & L & N)]]); rewrite E; split; try discriminate.
  - intros r' H. inversion H; subst r'. split; [exact A|]. intros i. rewrite F. split; [apply resolvable_bound|apply A].
  - intros _. exists i. split; [exact L|]. intros k. destruct (reaches es k i) eqn:R; [|reflexivity]. destruct N. exists k. exact R.
Qed.
Print Assumptions delta_resolution_exact.

Example cyclic_and_self_referencing_deltas_refused :
  resolve [EFull; EDelta 0; EDelta 2; EDelta 4; EDelta 3; EDelta 9] = Some None /\
  resolve [EFull; EDelta 0; EDelta 1; EDelta 1] = Some (Some [3; 2; 1; 0]).
Proof. vm_compute. auto. Qed.

(* reading one entry of an installed pack (Pack.resolve_object) walks down the
   chain of bases at most [length es] times whatever the base pointers and the
   index say: a chain that revisits an entry is refused instead of followed *)
Theorem delta_read_terminates : forall es i, read_entry es i <> None.
Proof. exact read_entry_total. Qed.
Print Assumptions delta_read_terminates.

(* and it yields the object exactly when the chain of bases ends in a full object *)
Theorem delta_read_exact : forall es i,
  (exists d, read_entry es i = Some (Some d)) <-> exists k, reaches es k i = true.
Proof.
  intros es i. split.
  - intros [d H]. eapply chase_sound. exact H.
  - intros [k H]. destruct (reaches_min _ _ _ H) as (m & R1 & R0). exists m. apply read_entry_depth; assumption.
Qed.
Print Assumptions delta_read_exact.

Example cyclic_chain_is_refused_on_read :
  read_entry [EDelta 1; EDelta 0; EFull; EDelta 2; EDelta 3; EDelta 7] 0 = Some None /\
  read_entry [EDelta 1; EDelta 0; EFull; EDelta 2; EDelta 3; EDelta 7] 4 = Some (Some 2) /\
  read_entry [EDelta 1; EDelta 0; EFull; EDelta 2; EDelta 3; EDelta 7] 5 = Some None.
Proof. vm_compute. auto. Qed.

From DV Require Import ListFacts ThinPack ThinPackP.

(* a thin pack whose entries have distinct names and that is resolved completely -- whatever its deltas name as
   bases: other entries, objects only the receiver has, objects the receiver has and the pack holds too -- is
   completed (entries, then the objects extend_pack appends) without holding any object twice *)
Theorem completed_thin_pack_has_no_duplicates : forall store order es,
  NoDup (map fst es) ->
  let s := complete true store order es in
  (forall n, In n (map fst es) -> In n (prod s)) ->
  NoDup (completed_names es s).
Proof.
  intros store order es N s All. destruct (complete_inv store order es) as (I1 & I2 & _ & _). fold s in I1, I2.
  apply NoDup_app; [exact N|exact I2|]. intros x Hx He. exact (I1 x He (All x Hx)).
Qed.
Print Assumptions completed_thin_pack_has_no_duplicates.

(* without taking a resolved entry off the list of external bases (the code before its repair): P is a delta on
   Q, Q a delta on an outside X, the receiver has Q and X, Q sorts first -- the completed pack holds Q twice *)
Theorem completion_without_dedupe_refuted :
  let s := complete false ex_store [1; 5] ex_entries in
  (forall n, In n (map fst ex_entries) -> In n (prod s)) /\ completed_names ex_entries s = [1; 2; 5; 1].
Proof. vm_compute. split; [intros n [<-|[<-|[]]]; auto|reflexivity]. Qed.
Print Assumptions completion_without_dedupe_refuted.
