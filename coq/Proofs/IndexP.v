(* Proofs/IndexP.v — the index file reads back what was written.  read_entry is a
   chain of "do" blocks, so each field lemma is stated against an arbitrary
   continuation k and the chain is consumed by rewriting, field after field. *)
From DV Require Import Radix Index.

(* the first byte is the general step taken from acc = -1: below, "acc = v - 1" then covers v = 0, nothing read yet *)
Lemma gv_dec_f_first l acc : gv_dec_f l true acc = gv_dec_f l false (-1).
Proof. destruct l; reflexivity. Qed.

Lemma gv_tail_dec : forall fuel v tl,
  0 <= v < 2 ^ Z.of_nat fuel ->
  gv_dec_f (rev (gv_tail fuel v) ++ tl) false (-1) = gv_dec_f tl false (v - 1).
Proof.
  induction fuel as [|f IH]; intros v tl Hv.
  - change (2 ^ Z.of_nat 0) with 1 in Hv. assert (v = 0) by lia. subst. reflexivity.
  - cbn [gv_tail]. destruct (v <=? 0) eqn:E.
    + assert (v = 0) by lia. subst. reflexivity.
    + cbn [rev]. rewrite <- app_assoc. cbn [app].
      rewrite pow2_S in Hv. rewrite IH by lia. cbn [gv_dec_f].
      replace (128 + (v - 1) mod 128 <? 128) with false by lia. f_equal. lia.
Qed.

Lemma gv_dec_enc n r : 0 <= n -> gv_dec (gv_enc n ++ r) = Some (n, r).
Proof.
  intros Hn. unfold gv_dec, gv_enc. cbn [rev]. rewrite <- app_assoc. cbn [app].
  rewrite gv_dec_f_first, gv_tail_dec by (pose proof (log2_fuel n Hn); unfold gv_fuel; lia).
  cbn [gv_dec_f]. replace (n mod 128 <? 128) with true by lia. f_equal. f_equal. lia.
Qed.

(* common_len a b is the length of a prefix p that a and b share *)
Lemma common_len_prefix : forall a b, exists p s t, a = p ++ s /\ b = p ++ t /\ common_len a b = zlen p.
Proof.
  (* the empty prefix, wherever common_len gives 0 *)
  assert (Hnil : forall a b : bytes, exists p s t, a = p ++ s /\ b = p ++ t /\ 0 = zlen p)
    by (intros a b; exists [], a, b; auto).
  induction a as [|x a IH]; intros [|y b]; cbn [common_len]; try apply Hnil.
  destruct (x =? y) eqn:E; [|apply Hnil]. assert (x = y) by lia. subst y.
  destruct (IH b) as (p & s & t & -> & -> & ->). exists (x :: p), s, t. rewrite zlen_cons. auto.
Qed.

Definition nul_free (l : bytes) : Prop := Forall (fun b => b <> 0) l.

Lemma until_nul_app s rest : nul_free s -> until_nul (s ++ 0 :: rest) = Some (s, rest).
Proof.
  induction s as [|b s IH]; intros H; [reflexivity|].
  inversion H; subst. cbn [app until_nul]. replace (b =? 0) with false by lia. rewrite IH by assumption. reflexivity.
Qed.

Lemma decompress_compress path prev rest :
  nul_free path -> decompress_path (compress_path path prev ++ rest) prev = Some (path, rest).
Proof.
  intros Hn. unfold decompress_path, compress_path, obind.
  destruct (common_len_prefix path prev) as (p & s & t & -> & -> & ->).
  apply Forall_app in Hn. rewrite zlen_app, zskipn_app_exact by reflexivity.
  pose proof (zlen_nonneg p). pose proof (zlen_nonneg t).
  rewrite <- app_assoc. rewrite gv_dec_enc by lia.
  rewrite <- app_assoc. cbn [app]. rewrite until_nul_app by apply Hn.
  replace (zlen p + zlen t - zlen p >? zlen p + zlen t) with false by lia.
  rewrite zfirstn_app_exact by lia. reflexivity.
Qed.

Definition u32 (x : Z) : Prop := 0 <= x < 4294967296.

Lemma u32_mod x : u32 (x mod 4294967296).
Proof. unfold u32. lia. Qed.

Lemma rd32_be32 {B} n r (k : Z * bytes -> option B) : u32 n -> obind (rd32 (be32 n ++ r)) k = k (n, r).
Proof. unfold u32. intros H. cbn. f_equal. f_equal. lia. Qed.

Lemma rd16_be16 {B} n r (k : Z * bytes -> option B) : 0 <= n < 65536 -> obind (rd16 (be16 n ++ r)) k = k (n, r).
Proof. intros H. cbn. f_equal. f_equal. lia. Qed.

Lemma take_app {B} n a r (k : bytes * bytes -> option B) : n = zlen a -> obind (take n (a ++ r)) k = k (a, r).
Proof.
  intros ->. unfold take. pose proof (zlen_nonneg a). rewrite zlen_app. pose proof (zlen_nonneg r).
  replace ((0 <=? zlen a) && (zlen a <=? zlen a + zlen r)) with true by lia.
  rewrite zfirstn_app_exact, zskipn_app_exact by reflexivity. reflexivity.
Qed.

(* dev, ino and size need only be non-negative: the writer reduces these three modulo 2^32 (as norm does);
   every other field is written as it stands and must fit its width *)
Record wf_entry (e : ientry) : Prop := {
  w_cs : u32 (e_cs e); w_cns : u32 (e_cns e); w_ms : u32 (e_ms e); w_mns : u32 (e_mns e);
  w_dev : 0 <= e_dev e; w_ino : 0 <= e_ino e; w_mode : u32 (e_mode e); w_uid : u32 (e_uid e);
  w_gid : u32 (e_gid e); w_size : 0 <= e_size e;
  w_sha : zlen (e_sha e) = 20;
  w_flags : 0 <= e_flags e < 65536; w_xflags : 0 <= e_xflags e < 65536;
  w_name : nul_free (e_name e)
}.

(* what comes back: dev / ino / size modulo 2^32, the EXTENDED bit derived *)
Definition norm (e : ientry) : ientry :=
  {| e_name := e_name e; e_cs := e_cs e; e_cns := e_cns e; e_ms := e_ms e; e_mns := e_mns e;
     e_dev := e_dev e mod 4294967296; e_ino := e_ino e mod 4294967296; e_mode := e_mode e;
     e_uid := e_uid e; e_gid := e_gid e; e_size := e_size e mod 4294967296; e_sha := e_sha e;
     e_flags := (flags_field e / 4096) * 4096; e_xflags := e_xflags e |}.

Lemma flags_field_facts e : wf_entry e ->
  0 <= flags_field e < 65536 /\
  flags_field e mod 4096 = Z.min (zlen (e_name e)) NAMEMASK /\
  (has_ext (flags_field e) = false -> e_xflags e = 0).
Proof.
  intros W. pose proof (zlen_nonneg (e_name e)). pose proof (w_flags e W).
  unfold flags_field, has_ext, NAMEMASK, EXTENDED. cbv zeta.
  (* the word before EXTENDED is forced: the name length field, at most 4095, and bits 12..15 of e_flags *)
  set (f := Z.min (zlen (e_name e)) 4095 + e_flags e / 4096 * 4096).
  destruct (e_xflags e =? 0) eqn:Ex; cbn [orb]; [subst f; lia|].
  destruct ((f / 16384) mod 2 =? 1) eqn:Eb; subst f; lia.
Qed.

Lemma pad_len_bounds s : 1 <= pad_len s <= 8.
Proof. unfold pad_len. lia. Qed.

Lemma take_zero l : take 0 l = Some ([], l).
Proof. unfold take. pose proof (zlen_nonneg l). replace ((0 <=? 0) && (0 <=? zlen l)) with true by lia. reflexivity. Qed.

Lemma if_true {A} (a b : A) : (if true then a else b) = a. Proof. reflexivity. Qed.
Lemma if_false {A} (a b : A) : (if false then a else b) = b. Proof. reflexivity. Qed.

(* the 62 or 64 bytes before the name: the local [fixed] of Index.write_entry, repeated so that lemmas can
   name it *)
Definition entry_fixed (e : ientry) : bytes :=
  let f := flags_field e in
  be32 (e_cs e) ++ be32 (e_cns e) ++ be32 (e_ms e) ++ be32 (e_mns e)
  ++ be32 (e_dev e mod 4294967296) ++ be32 (e_ino e mod 4294967296) ++ be32 (e_mode e)
  ++ be32 (e_uid e) ++ be32 (e_gid e) ++ be32 (e_size e mod 4294967296)
  ++ e_sha e ++ be16 f ++ (if has_ext f then be16 (e_xflags e) else []).

Lemma zlen_entry_fixed e : wf_entry e -> zlen (entry_fixed e) = 62 + (if has_ext (flags_field e) then 2 else 0).
Proof.
  intros W. unfold entry_fixed. cbv zeta. rewrite !zlen_app, (w_sha e W).
  destruct (has_ext (flags_field e)); reflexivity.
Qed.

(* versions 2 and 3 store the name NUL-padded to a multiple of 8 *)
Lemma write_entry_bytes v prev e b :
  write_entry v prev e = Some b ->
  b = entry_fixed e ++ (if 4 <=? v then compress_path (e_name e) prev
                        else e_name e ++ repeat 0 (Z.to_nat (pad_len (zlen (entry_fixed e) + zlen (e_name e)))))
  /\ has_ext (flags_field e) && (v <? 3) = false.
Proof.
  unfold write_entry, entry_fixed. cbv zeta.
  destruct (has_ext (flags_field e) && (v <? 3)); [discriminate|].
  destruct (4 <=? v); intros H; split; congruence.
Qed.

(* reading it back: a length field of 4095 means "at least", the name then runs to the first pad byte *)
Lemma padded_name_read {A} fixedlen name rest (mk : bytes -> A) : nul_free name ->
  let nl := Z.min (zlen name) NAMEMASK in
  (do (name0, l) <- take nl ((name ++ repeat 0 (Z.to_nat (pad_len (fixedlen + zlen name)))) ++ rest);
   if nl =? NAMEMASK then
     do (more, l') <- until_nul l;
     do (_, l'') <- take (pad_len (fixedlen + zlen (name0 ++ more)) - 1) l';
     Some (mk (name0 ++ more), l'')
   else do (_, l') <- take (pad_len (fixedlen + nl)) l; Some (mk name0, l')) = Some (mk name, rest).
Proof.
  intros Hn nl. pose proof (zlen_nonneg name) as Hl.
  pose proof (pad_len_bounds (fixedlen + zlen name)) as Hpad.
  subst nl. unfold NAMEMASK. rewrite <- app_assoc. destruct (Z.min (zlen name) 4095 =? 4095) eqn:Elong.
  - replace (Z.min (zlen name) 4095) with 4095 by lia.
    rewrite <- (zfirstn_zskipn 4095 name) at 1. rewrite <- app_assoc.
    rewrite take_app by (rewrite zlen_zfirstn; lia).
    destruct (Z.to_nat (pad_len (fixedlen + zlen name))) as [|p] eqn:Ep; [lia|]. cbn [repeat app].
    rewrite until_nul_app by (apply Forall_skipn; exact Hn). cbn [obind].
    rewrite zfirstn_zskipn, take_app by (rewrite zlen_repeat; lia). reflexivity.
  - replace (Z.min (zlen name) 4095) with (zlen name) by lia.
    rewrite take_app by reflexivity. rewrite take_app by (rewrite zlen_repeat; lia). reflexivity.
Qed.

(* the second flag word: present (c) when the first says so, refused (d) below version 3 *)
Lemma xflags_field {B} (c d : bool) x r (k : Z * bytes -> option B) :
  c && d = false -> 0 <= x < 65536 -> (c = false -> x = 0) ->
  obind (if c then (if d then None else rd16 ((if c then be16 x else []) ++ r))
         else Some (0, (if c then be16 x else []) ++ r)) k = k (x, r).
Proof.
  intros A Hx Hz. destruct c.
  - cbn [andb] in A. rewrite A. apply rd16_be16, Hx.
  - rewrite Hz by reflexivity. reflexivity.
Qed.

(* whatever the version number: the reader and the writer branch on it alike *)
Lemma entry_roundtrip_any_version v prev e b rest :
  wf_entry e -> write_entry v prev e = Some b -> read_entry v prev (b ++ rest) = Some (norm e, rest).
Proof.
  intros W Hw. apply write_entry_bytes in Hw. destruct Hw as [-> Eassert].
  pose proof (flags_field_facts e W) as (Hf & Hfm & Hfx).
  rewrite (zlen_entry_fixed e W). unfold entry_fixed, read_entry. cbv zeta.
  set (f := flags_field e) in *. set (fixedlen := 62 + (if has_ext f then 2 else 0)).
  pose proof (w_name e W) as Hname. destruct W. rewrite <- !app_assoc.
  rewrite !rd32_be32 by auto using u32_mod. rewrite (take_app 20) by auto. rewrite rd16_be16 by exact Hf.
  rewrite xflags_field by assumption.
  destruct (4 <=? v).
  { rewrite decompress_compress by assumption. reflexivity. }
  rewrite Hfm. exact (padded_name_read fixedlen (e_name e) rest _ Hname).
Qed.

Lemma read_write_entries v : forall es prev b rest,
  Forall wf_entry es -> write_entries v prev es = Some b ->
  read_entries v (length es) prev (b ++ rest) = Some (map norm es, rest).
Proof.
  induction es as [|e es IH]; intros prev b rest Hall Hw.
  - cbn in Hw. injection Hw as <-. reflexivity.
  - inversion Hall as [|? ? We Hes]; subst. cbn [write_entries] in Hw.
    destruct (write_entry v prev e) as [a|] eqn:Ea; [|discriminate].
    destruct (write_entries v (e_name e) es) as [c|] eqn:Ec; [|discriminate].
    injection Hw as <-. cbn [length read_entries map]. rewrite <- app_assoc.
    rewrite (entry_roundtrip_any_version v prev e a (c ++ rest) We Ea). cbn [obind norm e_name].
    rewrite (IH (e_name e) c rest Hes Ec). reflexivity.
Qed.

Lemma read_header_write v n rest : 1 <= v <= 4 -> u32 n ->
  read_header (write_header v n ++ rest) = Some (v, n, rest).
Proof.
  intros Hv Hn. unfold read_header, write_header. rewrite <- !app_assoc.
  rewrite (take_app 4 DIRC) by reflexivity. rewrite bytes_beq_refl. cbn [negb].
  rewrite !rd32_be32 by (unfold u32 in *; lia).
  replace ((1 <=? v) && (v <=? 4)) with true by lia. reflexivity.
Qed.

(* every version the header reader accepts *)
Lemma index_roundtrip_any_version v es b rest :
  1 <= v <= 4 -> Forall wf_entry es -> zlen es < 4294967296 ->
  write_index v es = Some b ->
  read_index (b ++ rest) = Some (effective_version v es, map norm es, rest).
Proof.
  intros Hv Hall Hn Hw. unfold write_index in Hw. cbv zeta in Hw.
  set (v' := effective_version v es) in *.
  assert (Hv' : 1 <= v' <= 4) by (unfold v', effective_version; destruct (_ && _); lia).
  destruct (write_entries v' [] es) as [body|] eqn:Eb; [|discriminate]. cbn [obind] in Hw.
  assert (b = write_header v' (zlen es) ++ body) as -> by congruence.
  unfold read_index. rewrite <- app_assoc. pose proof (zlen_nonneg es).
  rewrite read_header_write by (unfold u32; lia). cbn [obind].
  replace (Z.to_nat (zlen es)) with (length es) by (unfold zlen; lia).
  rewrite (read_write_entries v' es [] body rest Hall Eb). reflexivity.
Qed.

(* version 2 is asked for and the extended flags of e1 make it 3; the dev of e1, beyond 32 bits, comes back
   reduced (norm) *)
Example ex_index :
  let e1 := {| e_name := [97;47;98]; e_cs := 1; e_cns := 2; e_ms := 3; e_mns := 4; e_dev := 4294967301; e_ino := 6;
               e_mode := 33188; e_uid := 7; e_gid := 8; e_size := 9; e_sha := repeat 17 20; e_flags := 0; e_xflags := 16384 |} in
  let e2 := {| e_name := [97;47;99]; e_cs := 1; e_cns := 2; e_ms := 3; e_mns := 4; e_dev := 5; e_ino := 6;
               e_mode := 33188; e_uid := 7; e_gid := 8; e_size := 9; e_sha := repeat 18 20; e_flags := 4096; e_xflags := 0 |} in
  exists b, write_index 2 [e1; e2] = Some b /\ read_index (b ++ [1;2;3]) = Some (3, [norm e1; norm e2], [1;2;3])
            /\ sorted_entries [e1; e2] = true.
Proof. eexists. split; [vm_compute; reflexivity|]. split; vm_compute; reflexivity. Qed.
