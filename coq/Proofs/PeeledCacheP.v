(* Proofs/PeeledCacheP.v — the peeled values in packed-refs stay true (PeelOK) as long as dulwich writes only
   plain entries there, and then get_peeled answers with the peeled value of what the ref is *)
From DV Require Import ListFacts PeeledCache.

Lemma upd_same (m : rmap) r v : upd m r v r = v.
Proof. unfold upd. rewrite Nat.eqb_refl. reflexivity. Qed.
Lemma upd_other (m : rmap) r v q : q <> r -> upd m r v q = m q.
Proof. intros H. unfold upd. destruct (Nat.eqb_spec q r); [contradiction|reflexivity]. Qed.

Section Peel.
Variable peel : Z -> Z.
Notation step := (step peel).
Notation run := (run peel).

(* what the file says is true: a ^ line carries the peeled value of its entry, an entry without one is not a tag *)
Definition PeelOK (s : pstate) : Prop :=
  forall r v, pk s r = Some v -> match pl s r with Some p => p = peel v | None => peel v = v end.

(* what dulwich may put into packed-refs without peeling anything: values that are not tags, under names that
   carry no ^ line (branches, lightweight tags) *)
Definition entry_plain (s : pstate) (x : nat * option Z) : Prop :=
  match snd x with Some v => peel v = v /\ pl s (fst x) = None | None => True end.
Definition op_plain (s : pstate) (o : op) : Prop :=
  match o with
  | OSet _ _ | ODelete _ | OGitPack _ => True
  | OAddPacked news => Forall (fun x => entry_plain s (fst x, Some (snd x))) news
  | OPackRefs which => Forall (entry_plain s) (loose_news s which)
  end.
Fixpoint run_plain (s : pstate) (ops : list op) : Prop :=
  match ops with
  | [] => True
  | o :: r => op_plain s o /\ run_plain (step s o) r
  end.

(* every entry of the table written is one of the old table or a plain one *)
Lemma apply_news_cases s news m : Forall (entry_plain s) news -> forall r v,
  apply_news m news r = Some v -> m r = Some v \/ (peel v = v /\ pl s r = None).
Proof.
  rewrite Forall_forall. intros F. unfold apply_news. apply fold_left_inv; [|auto].
  intros m' [q w] Hx Hm r v. cbn [fst snd]. unfold upd. destruct (Nat.eqb_spec r q) as [->|_]; [|apply Hm].
  intros ->. right. exact (F _ Hx).
Qed.

Lemma write_packed_ok s news : PeelOK s -> Forall (entry_plain s) news -> PeelOK (write_packed s news).
Proof.
  intros P F r v Hr. unfold write_packed in *. cbn [pk pl] in *. rewrite Hr.
  destruct (apply_news_cases s news (pk s) F r v Hr) as [E|[E1 E2]].
  - exact (P r v E).
  - rewrite E2. exact E1.
Qed.

Lemma step_ok s o : PeelOK s -> op_plain s o -> PeelOK (step s o).
Proof.
  intros P O. destruct o as [r v|r|news|which|which]; cbn [PeeledCache.step op_plain] in *.
  - exact P.
  - destruct (pk s r) eqn:E; [|exact P].
    apply (write_packed_ok s [(r, None)] P). repeat constructor.
  - apply (write_packed_ok s (map (fun x => (fst x, Some (snd x))) news) P).
    rewrite Forall_map. exact O.
  - exact (write_packed_ok s (loose_news s which) P O).
  - intros r v Hr. cbn [pk pl] in *. rewrite Hr.
    destruct (match pk s r with Some w => w =? v | None => false end) eqn:E.
    + (* the file had this entry with this value: what it says about it is kept *)
      destruct (pk s r) as [w|] eqn:Ew; [|discriminate]. apply Z.eqb_eq in E. subst w. exact (P r v Ew).
    + (* git peels *) destruct (Z.eqb_spec (peel v) v) as [E2|_]; [exact E2|reflexivity].
Qed.

Lemma run_ok : forall ops s, PeelOK s -> run_plain s ops -> PeelOK (run s ops).
Proof.
  induction ops as [|o ops IH]; intros s P H; [exact P|]. destruct H as [H1 H2].
  unfold PeeledCache.run. cbn [fold_left]. apply IH; [apply step_ok; assumption|exact H2].
Qed.

Lemma get_peeled_sound s r p : PeelOK s -> get_peeled s r = Some p ->
  exists v, current s r = Some v /\ p = peel v.
Proof.
  intros P H. unfold get_peeled in H. destruct (pk s r) as [v|] eqn:Ev; [|discriminate].
  specialize (P r v Ev). unfold current.
  destruct (ls s r) as [l|] eqn:El.
  - destruct (l =? v) eqn:E; cbn [negb] in H; [|discriminate]. apply Z.eqb_eq in E. subst l.
    exists v. split; [reflexivity|]. destruct (pl s r) as [q|]; inversion H; subst; congruence.
  - exists v. split; [exact Ev|]. destruct (pl s r) as [q|]; inversion H; subst; congruence.
Qed.

Lemma empty_ok : PeelOK empty_state.
Proof. intros r v H. discriminate. Qed.

Theorem peeled_cache_sound s ops r p : PeelOK s -> run_plain s ops ->
  get_peeled (run s ops) r = Some p -> exists v, current (run s ops) r = Some v /\ p = peel v.
Proof. intros P F. apply get_peeled_sound, run_ok; assumption. Qed.
End Peel.

(* ids: 1 = commit c0, 2 = commit c1, 11 = tag on c0, 12 = tag on c1; ref 0 = refs/tags/t *)
Definition ex_peel (v : Z) : Z := if v =? 11 then 1 else if v =? 12 then 2 else v.
(* git packs the tag 11 with ^1; the ref is moved to the tag 12 (a loose file); pack_refs packs it again *)
Definition ex_moved : list op := [OSet 0 11; OGitPack [0%nat]; OSet 0 12; OPackRefs [0%nat]].
(* a newly created annotated tag is packed by pack_refs *)
Definition ex_new : list op := [OSet 0 11; OPackRefs [0%nat]].
Example ex_plain :
  run_plain ex_peel empty_state [OSet 0 11; OSet 1 2; OGitPack [0%nat; 1%nat]; OSet 1 1; OSet 2 2; OPackRefs [1%nat; 2%nat]; ODelete 1] /\
  get_peeled (run ex_peel empty_state [OSet 0 11; OSet 1 2; OGitPack [0%nat; 1%nat]; OSet 1 1; OSet 2 2; OPackRefs [1%nat; 2%nat]; ODelete 1]) 0%nat = Some 1.
Proof. vm_compute. repeat split; repeat constructor. Qed.
