(* Proofs/RustTwinsP.v — the Python and Rust twins agree (parse_tree, the tree order, the bisection); the
   blocks that _count_blocks cuts a blob into; the order bytes_cmp, which the tree and pack-index proofs use
   as well *)
From DV Require Import RustTwins.

(* the accumulator never falls, so a prefix that has left u32 (where Rust stops) means the whole value has *)
Lemma u32_octal_spec : forall l acc, 0 <= acc -> forallb is_octal l = true ->
  let v := fold_left (fun a c => a * 8 + (c - 48)) l acc in
  acc <= v /\ (acc <= 4294967295 -> u32_octal l acc = if v >? 4294967295 then None else Some v).
Proof.
  induction l as [|c l IH]; intros acc Ha Hl; cbn [u32_octal fold_left]; cbv zeta.
  - split; [lia|]. intros Hm. replace (acc >? 4294967295) with false by lia. reflexivity.
  - cbn [forallb] in Hl. apply andb_prop in Hl. destruct Hl as [Hc Hl]. unfold is_octal in Hc.
    destruct (IH (acc * 8 + (c - 48)) ltac:(lia) Hl) as [Hv Hu]. split; [lia|]. intros _.
    destruct (acc * 8 + (c - 48) >? 4294967295) eqn:E; [|apply Hu; lia].
    replace (fold_left _ l _ >? 4294967295) with true by lia. reflexivity.
Qed.

Lemma find_byte_split b : forall l k, find_byte b l = Some k ->
  exists pre post, l = pre ++ b :: post /\ zlen pre = k.
Proof.
  induction l as [|c l IH]; intros k H; cbn [find_byte] in H; [discriminate|].
  destruct (c =? b) eqn:E.
  - inversion H; subst. exists [], l. replace b with c by lia. auto.
  - destruct (find_byte b l) as [k'|]; [|discriminate]. inversion H; subst.
    destruct (IH k' eq_refl) as (pre & post & -> & <-).
    exists (c :: pre), post. rewrite zlen_cons. split; [reflexivity|lia].
Qed.

Lemma find_byte_skip b : forall l rest, ~ In b l -> find_byte b (l ++ b :: rest) = Some (zlen l).
Proof.
  induction l as [|c l IH]; intros rest H; cbn [app find_byte].
  - rewrite Z.eqb_refl. reflexivity.
  - replace (c =? b) with false by (symmetry; apply Z.eqb_neq; intros ->; apply H; left; reflexivity).
    rewrite IH by (intros Hin; apply H; right; exact Hin). rewrite zlen_cons. f_equal. lia.
Qed.

Lemma find_byte_cons_other b c l : c <> b ->
  find_byte b (c :: l) = match find_byte b l with Some k => Some (k + 1) | None => None end.
Proof. intros H. cbn [find_byte]. replace (c =? b) with false by lia. reflexivity. Qed.

(* Python looks for the NUL from the space on and slices the name after the
   space; Rust drops the space first *)
Lemma entry_py_eq_rs sha_len strict text : py_entry sha_len strict text = rs_entry sha_len strict text.
Proof.
  unfold py_entry, rs_entry.
  destruct (find_byte 32 text) as [me|] eqn:Ef; [|reflexivity].
  destruct (find_byte_split _ _ _ Ef) as (mt & post & -> & <-).
  rewrite zskipn_app_plus by lia. change (zskipn 1 (32 :: post)) with post.
  rewrite zfirstn_app_exact, zskipn_app_exact by reflexivity.
  destruct mt as [|c0 mt']; [rewrite andb_false_r; reflexivity|]. cbn [app].
  destruct (forallb is_octal (c0 :: mt')) eqn:Eo; cbn [negb orb]; [|destruct (strict && _); reflexivity].
  rewrite (proj2 (u32_octal_spec _ 0 ltac:(lia) Eo)) by lia. unfold octal_value.
  destruct (fold_left _ _ 0 >? 4294967295); [destruct (strict && _); reflexivity|].
  destruct (strict && (c0 =? 48)); [reflexivity|].
  rewrite find_byte_cons_other by lia.
  destruct (find_byte 0 post) as [k|] eqn:Ek; [|reflexivity].
  destruct (find_byte_split _ _ _ Ek) as (pre & _ & _ & Hk). pose proof (zlen_nonneg pre).
  replace (k + 1 - 1) with k by lia. change (slice (32 :: post) 1 k) with (zfirstn k post).
  replace (zskipn (k + 1 + 1) (32 :: post)) with (zskipn (k + 1) post)
    by (unfold zskipn; replace (Z.to_nat (k + 1 + 1)) with (S (Z.to_nat (k + 1))) by lia; reflexivity).
  reflexivity.
Qed.

Lemma parse_tree_py_eq_rs_any : forall fuel sha_len strict text,
  py_parse_tree fuel sha_len strict text = rs_parse_tree fuel sha_len strict text.
Proof.
  induction fuel as [|f IH]; intros sha_len strict text; [reflexivity|].
  cbn [py_parse_tree rs_parse_tree]. destruct text as [|c t]; [reflexivity|].
  rewrite entry_py_eq_rs. destruct (rs_entry sha_len strict (c :: t)) as [[e rest]|]; [|reflexivity].
  rewrite IH. reflexivity.
Qed.

Lemma zcmp_refl x : zcmp x x = OEq.
Proof. unfold zcmp. replace (x <? x) with false by lia. reflexivity. Qed.

Lemma zcmp_eq x y : zcmp x y = OEq -> x = y.
Proof. unfold zcmp. destruct (x <? y) eqn:E1; [discriminate|]. destruct (y <? x) eqn:E2; [discriminate|]. lia. Qed.

(* the order on byte strings: comparing the other way round mirrors the answer *)
Definition oflip (o : ord) : ord := match o with OLt => OGt | OEq => OEq | OGt => OLt end.

Lemma zcmp_antisym x y : zcmp y x = oflip (zcmp x y).
Proof. unfold zcmp. destruct (x <? y) eqn:A, (y <? x) eqn:B; try reflexivity. lia. Qed.

Lemma bytes_cmp_antisym : forall a b, bytes_cmp b a = oflip (bytes_cmp a b).
Proof.
  induction a as [|x a IH]; intros [|y b]; cbn [bytes_cmp]; try reflexivity.
  rewrite (zcmp_antisym x y). destruct (zcmp x y); cbn [oflip]; [reflexivity|apply IH|reflexivity].
Qed.

Lemma bytes_cmp_flip a b o : bytes_cmp a b = o -> bytes_cmp b a = oflip o.
Proof. intros <-. apply bytes_cmp_antisym. Qed.

Lemma bytes_cmp_refl a : bytes_cmp a a = OEq.
Proof. induction a as [|x a IH]; [reflexivity|]. cbn [bytes_cmp]. rewrite zcmp_refl. exact IH. Qed.

Lemma bytes_cmp_eq : forall a b, bytes_cmp a b = OEq -> a = b.
Proof.
  induction a as [|x a IH]; intros [|y b] H; cbn [bytes_cmp] in H; try discriminate; [reflexivity|].
  destruct (zcmp x y) eqn:Z; try discriminate. apply zcmp_eq in Z. subst y. f_equal. apply IH. exact H.
Qed.

Lemma bytes_cmp_cons_lt x a y b :
  bytes_cmp (x :: a) (y :: b) = OLt <-> x < y \/ x = y /\ bytes_cmp a b = OLt.
Proof.
  cbn [bytes_cmp]. unfold zcmp. destruct (x <? y) eqn:E1; [split; [left; lia|reflexivity]|].
  destruct (y <? x) eqn:E2; [split; [discriminate|lia]|].
  split; [intros H; right; split; [lia|exact H]|intros [H|[_ H]]; [lia|exact H]].
Qed.

Lemma bytes_cmp_trans : forall a b c, bytes_cmp a b = OLt -> bytes_cmp b c = OLt -> bytes_cmp a c = OLt.
Proof.
  induction a as [|x a IH]; intros [|y b] [|z c] H1 H2; try discriminate; try reflexivity.
  apply bytes_cmp_cons_lt in H1, H2. apply bytes_cmp_cons_lt.
  destruct H1 as [H1|[-> H1]], H2 as [H2|[-> H2]]; [left; lia..|right; split; [reflexivity|eapply IH; eauto]].
Qed.

Definition plain (l : bytes) : Prop := Forall (fun c => c <> 0 /\ c <> 47 /\ 0 <= c < 256) l.

Lemma tree_cmp_py_eq_rs a b : py_tree_cmp a b = rs_tree_cmp a b.
Proof.
  unfold py_tree_cmp, rs_tree_cmp, py_key, rs_suffix.
  destruct (is_dir (snd a)), (is_dir (snd b)); rewrite ?app_nil_r; reflexivity.
Qed.

(* a name byte against "/" or against the end of the other name: a plain byte
   is neither "/" nor NUL, so the first comparison decides *)
Lemma cmp_suffix_eq : forall (a b : bytes) (ma mb : Z), plain a -> plain b ->
  bytes_cmp (a ++ rs_suffix ma) (b ++ rs_suffix mb) = rs_cmp_suffix a b (is_dir ma) (is_dir mb).
Proof.
  unfold rs_suffix. induction a as [|x a IH]; intros b ma mb Ha Hb.
  - destruct b as [|y b]; [destruct (is_dir ma), (is_dir mb); reflexivity|].
    inversion Hb as [|? ? (Hy0 & Hy47 & Hyr) _]; subst. cbn [app rs_cmp_suffix].
    destruct (is_dir ma); cbn [bytes_cmp].
    + destruct (zcmp 47 y) eqn:Z; [reflexivity|apply zcmp_eq in Z; lia|reflexivity].
    + unfold zcmp. replace (0 <? y) with true by lia. reflexivity.
  - inversion Ha as [|? ? (Hx0 & Hx47 & Hxr) Ha']; subst. destruct b as [|y b]; cbn [app rs_cmp_suffix].
    + destruct (is_dir mb); cbn [bytes_cmp].
      * destruct (zcmp x 47) eqn:Z; [reflexivity|apply zcmp_eq in Z; lia|reflexivity].
      * unfold zcmp. replace (x <? 0) with false by lia. replace (0 <? x) with true by lia. reflexivity.
    + inversion Hb; subst. cbn [bytes_cmp]. destruct (zcmp x y); [reflexivity|apply IH; assumption|reflexivity].
Qed.

Lemma tree_cmp_one_byte a b : plain (fst a) -> plain (fst b) -> py_tree_cmp a b = rs_tree_cmp_one_byte a b.
Proof. intros Ha Hb. rewrite tree_cmp_py_eq_rs. apply cmp_suffix_eq; assumption. Qed.

Lemma i64_ok_range x : - 9223372036854775808 <= x <= 9223372036854775807 -> i64_ok x = true.
Proof. unfold i64_ok. lia. Qed.

(* between -2^62 and 2^62, end - start, the midpoint and its neighbours stay within i64 *)
Lemma bisect_loop_py_eq_rs name sha : forall fuel s e,
  - 4611686018427387904 <= s -> e < 4611686018427387904 ->
  py_bisect fuel name sha s e = rs_bisect fuel name sha s e.
Proof.
  induction fuel as [|f IH]; intros s e Hs He; [reflexivity|].
  cbn [py_bisect rs_bisect]. destruct (s >? e) eqn:E; [reflexivity|].
  replace (s + Z.quot (e - s) 2) with ((s + e) / 2) by (rewrite Z.quot_div_nonneg by lia; lia).
  rewrite !i64_ok_range by lia. cbn [negb].
  destruct (bytes_cmp (name ((s + e) / 2)) sha); [apply IH; lia|reflexivity|apply IH; lia].
Qed.

Example ex_twins :
  py_parse_tree 5 2 false [49;48;48;54;52;52;32;97;0;7;8;52;48;48;48;48;32;98;0;9;10] =
    Some [([97], 33188, [7;8]); ([98], 16384, [9;10])] /\
  rs_parse_tree 5 2 false [49;48;48;54;52;52;32;97;0;7;8;52;48;48;48;48;32;98;0;9;10] =
    Some [([97], 33188, [7;8]); ([98], 16384, [9;10])] /\
  py_parse_tree 5 2 false [45;55;32;97;0;7;8] = None /\
  py_tree_cmp ([97], 16384) ([97;46;98], 33188) = OGt /\ rs_tree_cmp ([97], 16384) ([97;46;98], 33188) = OGt.
Proof. vm_compute. repeat split; reflexivity. Qed.

Lemma split_blocks_concat : forall l cur n, concat (split_blocks l cur n) = rev cur ++ l.
Proof.
  induction l as [|c l IH]; intros cur n; cbn [split_blocks].
  - destruct cur; cbn; [reflexivity|]. rewrite !app_nil_r. reflexivity.
  - destruct ((c =? 10) || (n + 1 =? 64)).
    + cbn [concat]. rewrite IH. cbn [rev app]. rewrite <- app_assoc. reflexivity.
    + rewrite IH. cbn [rev]. rewrite <- app_assoc. reflexivity.
Qed.

Lemma split_blocks_bounded : forall l cur n, n = zlen cur -> 0 <= n < 64 ->
  Forall (fun b => 1 <= zlen b <= 64) (split_blocks l cur n).
Proof.
  induction l as [|c l IH]; intros cur n Hn Hb; cbn [split_blocks].
  - destruct cur as [|x cur']; [constructor|]. constructor; [|constructor].
    unfold zlen in *. rewrite rev_length. cbn [length] in *. lia.
  - destruct ((c =? 10) || (n + 1 =? 64)) eqn:E.
    + constructor; [|apply IH; [reflexivity|lia]].
      unfold zlen in *. rewrite rev_length. cbn [length]. lia.
    + apply IH; [rewrite zlen_cons; lia|lia].
Qed.
