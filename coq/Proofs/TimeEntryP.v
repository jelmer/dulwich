(* Proofs/TimeEntryP.v — author/committer/tagger lines survive formatting and parsing *)
From DV Require Import Radix ObjectsP TimeEntry.

(* Radix.value 10 written out *)
Definition dv (l : bytes) (init : Z) : Z := fold_left (fun a c => a * 10 + (c - 48)) l init.

Lemma dv_shift l : forall i, forallb is_digit l = true -> dv l i = i * 10 ^ Z.of_nat (length l) + dv l 0.
Proof. intros i _. apply (value_shift 10). Qed.

Lemma spells_pad2 n : 0 <= n -> spells 10 (pad2 n) n /\ (n < 100 -> length (pad2 n) = 2%nat).
Proof.
  intros Hn. unfold pad2. destruct (Z.ltb_spec n 100) as [L|L].
  - replace ((0 <=? n) && true) with true by lia. split; [|reflexivity].
    unfold spells, value, digit. cbn [fold_left]. repeat split; [lia| |discriminate]. repeat constructor; lia.
  - replace ((0 <=? n) && false) with false by lia. split; [apply spells_dec; exact Hn|lia].
Qed.

Lemma hhmm_value h m : 0 <= h -> 0 <= m < 100 -> spells 10 (pad2 h ++ pad2 m) (h * 100 + m).
Proof.
  intros Hh Hm. destruct (spells_pad2 h Hh) as [Sh _]. destruct (spells_pad2 m ltac:(lia)) as [Sm Lm].
  pose proof (spells_app 10 _ _ _ _ Sh Sm) as S. rewrite Lm in S by lia. exact S.
Qed.

(* a sign and digits that spell v = HHMM *)
Lemma parse_timezone_spells s r v : spells 10 r v -> 0 <= v ->
  parse_timezone (s :: r) =
  if s =? MINUS then Some (- (v / 100 * 3600 + v mod 100 * 60), v =? 0)
  else if s =? PLUS then Some (v / 100 * 3600 + v mod 100 * 60, false) else None.
Proof.
  intros Sr Hv. unfold parse_timezone. rewrite (parse_dec_spells r v Sr).
  destruct (s =? MINUS) eqn:E1; [|destruct (s =? PLUS) eqn:E2]; cbn [orb andb]; [rewrite orb_true_r| |reflexivity].
  - rewrite Z.abs_opp, Z.abs_eq, andb_true_r by lia. f_equal. f_equal; [|lia].
    destruct (Z.eq_dec v 0) as [->|]; [reflexivity|]. replace (- v <? 0) with true by lia. lia.
  - rewrite Z.abs_eq, andb_false_r by lia. replace (v <? 0) with false by lia. f_equal. f_equal. lia.
Qed.

Lemma zone_spells off : 0 <= off -> off mod 60 = 0 -> exists v,
  spells 10 (pad2 (Z.quot off 3600) ++ pad2 ((off / 60) mod 60)) v /\
  v / 100 * 3600 + v mod 100 * 60 = off /\ 0 <= v /\ (v = 0 <-> off = 0).
Proof.
  intros H M. exists (off / 3600 * 100 + (off / 60) mod 60). split; [|lia]. rewrite Z.quot_div_nonneg by lia.
  pose proof (Z.mod_pos_bound (off / 60) 60 ltac:(lia)). apply hhmm_value; [apply Z.div_pos|]; lia.
Qed.

Lemma timezone_roundtrip offset neg : offset mod 60 = 0 -> (neg = true -> offset = 0) ->
  exists t, format_timezone offset neg = Some t /\ parse_timezone t = Some (offset, neg) /\
            (exists s r, t = s :: r /\ (s = PLUS \/ s = MINUS) /\ forallb is_digit r = true).
Proof.
  intros M N. unfold format_timezone. replace (offset mod 60 =? 0) with true by lia. cbn [negb].
  destruct ((offset <? 0) || neg) eqn:Sg; eexists; (split; [reflexivity|]).
  - (* '-': offset <= 0, and 0 exactly when the flag is set *)
    assert (Ho : offset <= 0) by (destruct neg; [rewrite N by reflexivity|]; lia).
    destruct (zone_spells (- offset)) as (v & Sv & B & P & Z0); [lia..|]. split.
    + rewrite (parse_timezone_spells _ _ v Sv P). change (MINUS =? MINUS) with true. cbv iota. rewrite B. f_equal. f_equal; [lia|].
      destruct neg; [specialize (N eq_refl)|rewrite orb_false_r in Sg]; lia.
    + eexists _, _. split; [reflexivity|]. split; [right; reflexivity|exact (spells_is_digit _ _ Sv)].
  - apply orb_false_elim in Sg. destruct Sg as [Ho ->].
    destruct (zone_spells offset) as (v & Sv & B & P & _); [lia..|]. split.
    + rewrite (parse_timezone_spells _ _ v Sv P). change (PLUS =? MINUS) with false. change (PLUS =? PLUS) with true. cbv iota.
      rewrite B. reflexivity.
    + eexists _, _. split; [reflexivity|]. split; [left; reflexivity|exact (spells_is_digit _ _ Sv)].
Qed.

Lemma rindex_none : forall l i f, ~ In GT l -> rindex_gt l i f = f.
Proof.
  induction l as [|a l IH]; intros i f N; [reflexivity|]. destruct l as [|b l]; [reflexivity|].
  cbn [rindex_gt]. replace (a =? GT) with false by (symmetry; apply Z.eqb_neq; intros ->; apply N; left; reflexivity).
  cbn [andb]. apply IH. intros H. apply N. right. exact H.
Qed.
Lemma rindex_cons a b r i f :
  rindex_gt (a :: b :: r) i f = rindex_gt (b :: r) (i + 1) (if (a =? GT) && (b =? SPC) then Some i else f).
Proof. reflexivity. Qed.
Lemma rindex_last : forall l1 l2 i f, ~ In GT l2 -> rindex_gt (l1 ++ GT :: SPC :: l2) i f = Some (i + zlen l1).
Proof.
  induction l1 as [|x l1 IH]; intros l2 i f N; cbn [app].
  - rewrite rindex_cons, !Z.eqb_refl. cbn [andb]. rewrite rindex_none; [rewrite zlen_nil; f_equal; lia|].
    intros [H|H]; [discriminate|contradiction].
  - assert (E : exists b r, l1 ++ GT :: SPC :: l2 = b :: r) by (destruct l1; cbn [app]; eauto).
    destruct E as (b & r & E). rewrite E, rindex_cons, <- E, IH by exact N. rewrite zlen_cons. f_equal. lia.
Qed.

Lemma last_space_none : forall l i f, ~ In SPC l -> last_space l i f = f.
Proof.
  induction l as [|a l IH]; intros i f N; [reflexivity|]. cbn [last_space].
  replace (a =? SPC) with false by (symmetry; apply Z.eqb_neq; intros ->; apply N; left; reflexivity).
  apply IH. intros H. apply N. right. exact H.
Qed.
Lemma last_space_last : forall a b i f, ~ In SPC b -> last_space (a ++ SPC :: b) i f = Some (i + zlen a).
Proof.
  induction a as [|x a IH]; intros b i f N.
  - cbn [app last_space]. rewrite Z.eqb_refl. rewrite last_space_none by exact N. rewrite zlen_nil. f_equal. lia.
  - cbn [app last_space]. rewrite IH by exact N. rewrite zlen_cons. f_equal. lia.
Qed.

Lemma time_entry_roundtrip p time tz neg : tz mod 60 = 0 -> (neg = true -> tz = 0) ->
  exists v, format_time_entry (p ++ [GT]) time tz neg = Some v /\ parse_time_entry v = TOk (p ++ [GT]) time tz neg.
Proof.
  intros M N. destruct (timezone_roundtrip tz neg M N) as (t & F & P & s & r & Et & Hs & Dr).
  unfold format_time_entry. rewrite F. eexists. split; [reflexivity|].
  (* neither the number nor the zone holds "> ", and the zone holds no space *)
  assert (NT : forall c, c = GT \/ c = SPC -> ~ In c t).
  { subst t. intros c Hc [H|H]; [unfold GT, SPC, PLUS, MINUS in *; lia|]. revert H. apply (forallb_notin _ _ _ Dr). destruct Hc; subst c; reflexivity. }
  assert (NG : ~ In GT (dec time ++ SPC :: t)).
  { rewrite in_app_iff. intros [H|[H|H]]; [apply dec_chars in H; unfold GT in H; lia|discriminate|]. apply (NT GT); auto. }
  rewrite <- app_assoc. cbn [app]. unfold parse_time_entry.
  rewrite rindex_last, Z.add_0_l by exact NG. rewrite zfirstn_app_plus, zskipn_app_plus by lia.
  change (zskipn 2 (GT :: SPC :: ?x)) with x. change (zfirstn 1 (GT :: ?x)) with [GT].
  rewrite last_space_last, Z.add_0_l by (apply (NT SPC); auto).
  rewrite zfirstn_app_exact, zskipn_app_plus by lia. change (zskipn 1 (SPC :: t)) with t.
  rewrite parse_dec_dec, P. reflexivity.
Qed.
