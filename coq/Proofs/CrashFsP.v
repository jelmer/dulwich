(* Proofs/CrashFsP.v — what a reader sees (resolve, has) after each step of an operation, and for each operation
   an invariant of the states its prefixes leave *)
From DV Require Import ListFacts CrashFs.

Lemma lookup_remove r r' (m : list (nat * obj)) : lookup r' (remove_key r m) = if Nat.eqb r r' then None else lookup r' m.
Proof.
  unfold remove_key. induction m as [|[k v] t IH]; cbn [filter fst lookup]; [destruct (Nat.eqb r r'); reflexivity|].
  destruct (Nat.eqb_spec k r) as [->|N]; cbn [negb lookup]; rewrite IH.
  - destruct (Nat.eqb r r'); reflexivity.
  - destruct (Nat.eqb_spec k r') as [->|_]; [|reflexivity]. destruct (Nat.eqb_spec r r'); [congruence|reflexivity].
Qed.

Lemma lookup_set r v r' m : lookup r' (set_key r v m) = if Nat.eqb r r' then Some v else lookup r' m.
Proof. unfold set_key. cbn [lookup]. rewrite lookup_remove. destruct (Nat.eqb r r'); reflexivity. Qed.

Lemma in_remove_key {A} d (m : list (nat * A)) x : In x (remove_key d m) <-> In x m /\ fst x <> d.
Proof. apply (filter_neqb_In Nat.eqb Nat.eqb_eq). Qed.

Lemma lookup_fold_set rs m r :
  let m' := fold_right (fun kv m => set_key (fst kv) (snd kv) m) m rs in
  (exists v, In (r, v) rs /\ lookup r m' = Some v) \/ (~ In r (map fst rs) /\ lookup r m' = lookup r m).
Proof.
  induction rs as [|[k w] t IH]; cbn [fold_right map In fst snd]; [right; split; [intros []|reflexivity]|].
  rewrite lookup_set. destruct (Nat.eqb_spec k r) as [->|N]; [left; exists w; auto|].
  destruct IH as [(v & I & E)|[NI E]]; [left; exists v; auto|right]. split; [intros [X|X]; auto|exact E].
Qed.

Lemma run_app s a b : run s (a ++ b) = run (run s a) b.
Proof. apply fold_left_app. Qed.

Lemma resolve_set_loose s r v r' : resolve (apply s (SSetLoose r v)) r' = if Nat.eqb r r' then Some v else resolve s r'.
Proof. unfold resolve. cbn [apply loose packed]. rewrite lookup_set. destruct (Nat.eqb r r'); reflexivity. Qed.

Lemma resolve_del_loose s r r' :
  resolve (apply s (SDelLoose r)) r' = if Nat.eqb r r' then lookup r' (packed s) else resolve s r'.
Proof. unfold resolve. cbn [apply loose packed]. rewrite lookup_remove. destruct (Nat.eqb r r'); reflexivity. Qed.

Lemma resolve_del_packed s r r' :
  resolve (apply s (SDelPacked r)) r' = if Nat.eqb r r' then lookup r' (loose s) else resolve s r'.
Proof.
  unfold resolve. cbn [apply loose packed]. rewrite lookup_remove.
  destruct (Nat.eqb r r'); [destruct (lookup r' (loose s))|]; reflexivity.
Qed.

Lemma has_add s c os o : has (apply s (SAddC c os)) o = existsb (Nat.eqb o) os || has s o.
Proof. reflexivity. Qed.

Lemma has_in s o : has s o = true <-> exists c os, In (c, os) (conts s) /\ In o os.
Proof.
  unfold has. rewrite existsb_exists. split.
  - intros ([c os] & I & E). apply mem_nat_In in E. eauto.
  - intros (c & os & I & Io). exists (c, os). split; [exact I|apply mem_nat_In; exact Io].
Qed.

Section PackRefs.
  Variable s0 : fs.
  Variable rs : list (refname * obj).
  Hypothesis CUR : forall r v, In (r, v) rs -> resolve s0 r = Some v.   (* the values read: loose, else packed *)

  (* every ref resolves as it did, and those of rs would do so without their loose file *)
  Definition pack_refs_inv (s : fs) : Prop :=
    conts s = conts s0 /\ (forall r, resolve s r = resolve s0 r) /\
    (forall r, In r (map fst rs) -> lookup r (packed s) = resolve s0 r).

  Lemma pack_refs_inv_first : pack_refs_inv (apply s0 (SSetPacked rs)).
  Proof.
    split; [reflexivity|]. split; intros r.
    - unfold resolve at 1. cbn [apply loose packed].
      destruct (lookup_fold_set rs (packed s0) r) as [(v & Iv & E)|[_ E]]; rewrite E; [|reflexivity].
      rewrite <- (CUR r v Iv). unfold resolve. destruct (lookup r (loose s0)); reflexivity.
    - intros I. cbn [apply packed].
      destruct (lookup_fold_set rs (packed s0) r) as [(v & Iv & E)|[NI _]]; [|contradiction].
      rewrite E. symmetry. exact (CUR r v Iv).
  Qed.

  Lemma pack_refs_inv_prune s r : In r (map fst rs) -> pack_refs_inv s -> pack_refs_inv (apply s (SDelLoose r)).
  Proof.
    intros I (C & R & P). split; [exact C|]. split; [|exact P].
    intros r'. rewrite resolve_del_loose. destruct (Nat.eqb_spec r r') as [<-|N]; [exact (P r I)|apply R].
  Qed.

  Lemma pack_refs_prefixes k : let s := run s0 (firstn k (p_pack_refs rs)) in
    (forall r, resolve s r = resolve s0 r) /\ conts s = conts s0.
  Proof.
    destruct k as [|k]; [cbn; auto|]. cbn [p_pack_refs firstn run fold_left].
    assert (Kk : pack_refs_inv (fold_left apply (firstn k (map (fun kv => SDelLoose (fst kv)) rs))
                                          (apply s0 (SSetPacked rs)))).
    { apply fold_left_prefix_inv; [|exact pack_refs_inv_first]. intros s st Hin Ks.
      apply in_map_iff in Hin. destruct Hin as (kv & <- & Hin).
      apply pack_refs_inv_prune; [apply in_map; exact Hin|exact Ks]. }
    split; apply Kk.
  Qed.
End PackRefs.

Lemma has_del_covered s d c keep : In (c, keep) (conts s) -> c <> d ->
  (forall os o, In (d, os) (conts s) -> In o os -> In o keep) ->
  forall o, has (apply s (SDelC d)) o = has s o.
Proof.
  intros A N Cov o. apply eq_true_iff_eq. rewrite !has_in. cbn [apply conts]. split.
  - intros (e & os & I & Io). apply in_remove_key in I. exists e, os. tauto.
  - intros (e & os & I & Io). destruct (Nat.eq_dec e d) as [->|Ne].
    + exists c, keep. split; [apply in_remove_key; auto|exact (Cov os o I Io)].
    + exists e, os. split; [apply in_remove_key; auto|exact Io].
Qed.

Section Repack.
  Variable s0 : fs.
  Variable c : cid.
  Variable keep : list obj.
  Variable old : list cid.
  Hypothesis FRESH : ~ In c old.
  Hypothesis KEEP : forall o, In o keep -> has s0 o = true.                      (* the new pack holds existing objects *)
  Hypothesis OLD : forall d os o, In d old -> In (d, os) (conts s0) -> In o os -> In o keep.   (* all of what is removed *)

  (* the new pack is there, every other container was there in s0 (so OLD covers what a deletion takes),
     and a reader finds the objects and the refs of s0 *)
  Definition repack_inv (s : fs) : Prop :=
    In (c, keep) (conts s) /\ (forall d os, In (d, os) (conts s) -> In (d, os) (conts s0) \/ d = c) /\
    (forall o, has s o = has s0 o) /\ loose s = loose s0 /\ packed s = packed s0.

  Lemma repack_inv_first : repack_inv (apply s0 (SAddC c keep)).
  Proof.
    split; [left; reflexivity|]. split; [|split; [|split; reflexivity]].
    - intros d os [X|X]; [injection X; auto|auto].
    - intros o. rewrite has_add. destruct (existsb (Nat.eqb o) keep) eqn:E; [|reflexivity].
      symmetry. apply KEEP, mem_nat_In, E.
  Qed.

  Lemma repack_inv_del s d : In d old -> repack_inv s -> repack_inv (apply s (SDelC d)).
  Proof.
    intros Id (A & B & H & LP). assert (N : c <> d) by (intros ->; contradiction).
    split; [apply in_remove_key; auto|]. split; [intros e os I; apply in_remove_key in I; apply B, I|]. split; [|exact LP].
    intros o. rewrite <- H. apply (has_del_covered s d c keep A N).
    intros os x I Ix. destruct (B _ _ I) as [X|X]; [exact (OLD d os x Id X Ix)|congruence].
  Qed.

  Lemma repack_prefixes k : let s := run s0 (firstn k (p_repack c keep old)) in
    (forall o, has s o = has s0 o) /\ loose s = loose s0 /\ packed s = packed s0.
  Proof.
    destruct k as [|k]; [cbn; auto|]. cbn [p_repack firstn run fold_left].
    assert (Mk : repack_inv (fold_left apply (firstn k (map SDelC old)) (apply s0 (SAddC c keep)))).
    { apply fold_left_prefix_inv; [|exact repack_inv_first]. intros s st Hin Ms.
      apply in_map_iff in Hin. destruct Hin as (d & <- & Hin). exact (repack_inv_del s d Hin Ms). }
    apply Mk.
  Qed.
End Repack.

Section Update.
  Variable deps : obj -> list obj.

  Lemma consistent_add s c os : consistent deps s ->
    (forall o, In o os -> forall d, In d (deps o) -> has (apply s (SAddC c os)) d = true) ->
    consistent deps (apply s (SAddC c os)).
  Proof.
    intros [C R] H. split.
    - intros o Ho d Hd. rewrite has_add in Ho. apply orb_prop in Ho. destruct Ho as [Ho|Ho].
      + apply mem_nat_In in Ho. exact (H o Ho d Hd).
      + rewrite has_add, (C o Ho d Hd). apply orb_true_r.
    - intros r v Hr. rewrite has_add, (R r v Hr). apply orb_true_r.
  Qed.

  Lemma consistent_set_ref s r v : consistent deps s -> has s v = true -> consistent deps (apply s (SSetLoose r v)).
  Proof.
    intros [C R] Hv. split; [exact C|]. intros r' w H. rewrite resolve_set_loose in H.
    destruct (Nat.eqb r r'); [injection H as <-; exact Hv|exact (R r' w H)].
  Qed.

  (* `ordered` speaks of the state each container arrives in: the induction leaves the state general *)
  Lemma adds_prefixes news : forall s k, consistent deps s -> ordered deps s news ->
    let s' := run s (firstn k (map (fun c => SAddC (fst c) (snd c)) news)) in
    consistent deps s' /\ (forall r, resolve s' r = resolve s r) /\ (forall o, has s o = true -> has s' o = true).
  Proof.
    induction news as [|c t IH]; intros s k C O; [rewrite firstn_nil; cbn; auto|].
    destruct k as [|k]; [cbn; auto|]. destruct O as [O1 O2]. cbn [map firstn run fold_left].
    destruct (IH _ k (consistent_add s _ _ C O1) O2) as (C' & R & M).
    split; [exact C'|]. split; [exact R|]. intros o H. apply M. rewrite has_add, H. apply orb_true_r.
  Qed.
End Update.
