(* Proofs/ConfigDictP.v — the _keyed cache of CaseInsensitiveOrderedMultiDict always agrees with the ordered
   list _real, for every operation sequence.  The model is the last part of Model/Config.v. *)
From DV Require Import Config.

Lemma aget_aset k v l q : aget q (aset k v l) = if bytes_beq q k then Some v else aget q l.
Proof. exact (kget_kset l k v q). Qed.

Lemma aget_adel k l q : konce l -> aget q (adel k l) = if bytes_beq q k then None else aget q l.
Proof. exact (kget_kdel1 l k q). Qed.

Lemma last_val_app lk a b : last_val lk (a ++ b) =
  match last_val lk b with Some v => Some v | None => last_val lk a end.
Proof.
  induction a as [|e a IH]; cbn [app last_val].
  - destruct (last_val lk b); reflexivity.
  - rewrite IH. destruct (last_val lk b); reflexivity.
Qed.

Lemma last_val_filter lk lk0 real :
  last_val lk (filter (other_key lk0) real) = if bytes_beq lk lk0 then None else last_val lk real.
Proof.
  induction real as [|e r IH]; cbn [filter last_val]; [destruct (bytes_beq lk lk0); reflexivity|].
  unfold other_key at 1. destruct (bytes_beqP (lower (fst e)) lk0) as [<-|N]; cbn [negb last_val]; rewrite IH.
  - rewrite bytes_beq_sym. destruct (bytes_beq (lower (fst e)) lk); [reflexivity|]. destruct (last_val lk r); reflexivity.
  - destruct (bytes_beqP lk lk0) as [<-|]; [|reflexivity]. destruct (bytes_beqP (lower (fst e)) lk); [contradiction|reflexivity].
Qed.

(* adel removes the first binding of a key: the list stands for the Python dict as long as every key is bound once *)
Definition md_inv (s : md) : Prop :=
  konce (md_keyed s) /\ forall lk, aget lk (md_keyed s) = last_val lk (md_real s).

Lemma md_step_inv s o : md_inv s -> md_inv (fst (md_step s o)).
Proof.
  intros [Hn Hc]. destruct o as [k v|k v|k]; cbn [md_step fst].
  - split; cbn [md_real md_keyed]; [exact (konce_kset _ _ _ Hn)|].
    intros lk. rewrite aget_aset, last_val_app. cbn [last_val fst snd].
    rewrite (bytes_beq_sym (lower k) lk). destruct (bytes_beq lk (lower k)); [reflexivity|apply Hc].
  - split; cbn [md_real md_keyed]; [exact (konce_kset _ _ _ Hn)|].
    intros lk. rewrite aget_aset, last_val_app. cbn [last_val fst snd].
    rewrite (bytes_beq_sym (lower k) lk). destruct (bytes_beq lk (lower k)) eqn:E; [reflexivity|].
    rewrite last_val_filter, E. apply Hc.
  - destruct (aget (lower k) (md_keyed s)) eqn:E; cbn [fst]; [|split; assumption].
    split; cbn [md_real md_keyed]; [exact (konce_kdel1 _ _ Hn)|].
    intros lk. rewrite aget_adel by exact Hn. rewrite last_val_filter.
    destruct (bytes_beq lk (lower k)); [reflexivity|apply Hc].
Qed.

Lemma md_run_inv ops : md_inv (md_run ops).
Proof. unfold md_run. apply fold_left_inv; [intros s o _; apply md_step_inv|]. split; [exact I|reflexivity]. Qed.

Lemma all_vals_filter lk lk0 real :
  all_vals lk (filter (other_key lk0) real) = if bytes_beq lk lk0 then [] else all_vals lk real.
Proof.
  unfold all_vals. induction real as [|e r IH]; cbn [filter map]; [destruct (bytes_beq lk lk0); reflexivity|].
  unfold other_key at 1. destruct (bytes_beqP (lower (fst e)) lk0) as [<-|N]; cbn [negb filter].
  - rewrite IH, bytes_beq_sym. destruct (bytes_beq (lower (fst e)) lk); reflexivity.
  - destruct (bytes_beqP (lower (fst e)) lk) as [<-|]; cbn [map]; rewrite IH; [|reflexivity].
    destruct (bytes_beqP (lower (fst e)) lk0); [contradiction|reflexivity].
Qed.

(* "f" and "F" are one key: the delete takes both, and "F" then finds the "f" added after it *)
Example ex_multidict :
  let s := md_run [MAdd [102] [49]; MAdd [70] [50]; MAdd [103] [51]; MDel [102]; MAdd [102] [52]] in
  md_real s = [([103], [51]); ([102], [52])] /\ md_getitem s [70] = Some [52] /\ md_len s = 2.
Proof. vm_compute. repeat split; reflexivity. Qed.
