(* Props/C09.v — a crash at any instant leaves a consistent repository.
   A crash leaves the visible state after some prefix [firstn k] of an
   operation's steps; every statement is for every k. *)
From DV Require Import ListFacts CrashFs CrashFsP.

(* adding objects (each after what it refers to) and then moving a ref — commit,
   fetch, receive-pack: at every instant the repository is consistent (every
   visible object's references are visible, every ref names a visible object),
   the ref holds its old or its new value, no other ref changes and no object
   that was readable disappears *)
Theorem update_crash_safe : forall deps s0 news r v k,
  consistent deps s0 -> ordered deps s0 news ->
  has (run s0 (map (fun c => SAddC (fst c) (snd c)) news)) v = true ->
  let s := run s0 (firstn k (p_update news r v)) in
  consistent deps s /\ (resolve s r = resolve s0 r \/ resolve s r = Some v) /\
  (forall r', r' <> r -> resolve s r' = resolve s0 r') /\ (forall o, has s0 o = true -> has s o = true).
Proof.
  intros deps s0 news r v k C O V. unfold p_update.
  destruct (firstn_app_last (map (fun c => SAddC (fst c) (snd c)) news) (SSetLoose r v) k) as [E|E]; rewrite E.
  - destruct (adds_prefixes deps news s0 k C O) as (C' & R & M). auto.
  - destruct (adds_prefixes deps news s0 (length news) C O) as (C' & R & M).
    rewrite <- (map_length (fun c => SAddC (fst c) (snd c))), firstn_all in C', R, M. rewrite run_app.
    split; [apply consistent_set_ref; assumption|]. cbn [run fold_left]. rewrite !resolve_set_loose, Nat.eqb_refl.
    split; [auto|]. split; [|exact M]. intros r' N. rewrite resolve_set_loose. destruct (Nat.eqb_spec r r'); [congruence|apply R].
Qed.
Print Assumptions update_crash_safe.

(* deleting a ref (packed entry first, then the loose file): it holds its old
   value or is gone — an older packed value never shows — and nothing else changes *)
Theorem delete_crash_safe : forall s0 r k,
  let s := run s0 (firstn k (p_delete r)) in
  (resolve s r = resolve s0 r \/ resolve s r = None) /\
  (forall r', r' <> r -> resolve s r' = resolve s0 r') /\ conts s = conts s0.
Proof.
  intros s0 r k. destruct k as [|[|k]]; cbn [p_delete firstn run fold_left].
  - auto.
  - split; [|split; [|reflexivity]].
    + rewrite resolve_del_packed, Nat.eqb_refl. unfold resolve. destruct (lookup r (loose s0)); auto.
    + intros r' N. rewrite resolve_del_packed. destruct (Nat.eqb_spec r r'); congruence.
  - rewrite firstn_nil. cbn [fold_left]. split; [right|split; [|reflexivity]].
    + rewrite resolve_del_loose, Nat.eqb_refl. cbn [apply packed]. rewrite lookup_remove, Nat.eqb_refl. reflexivity.
    + intros r' N. rewrite resolve_del_loose, resolve_del_packed. destruct (Nat.eqb_spec r r'); congruence.
Qed.
Print Assumptions delete_crash_safe.

(* packing refs (packed-refs renamed in first, then the loose files removed one
   by one): no ref ever changes its value *)
Theorem pack_refs_crash_safe : forall s0 rs k, NoDup (map fst rs) ->
  (forall r v, In (r, v) rs -> lookup r (loose s0) = Some v) ->
  let s := run s0 (firstn k (p_pack_refs rs)) in
  (forall r, resolve s r = resolve s0 r) /\ conts s = conts s0.
Proof.
  intros s0 rs k _ CUR. apply pack_refs_prefixes.
  intros r v H. unfold resolve. rewrite (CUR r v H). reflexivity.
Qed.
Print Assumptions pack_refs_crash_safe.

(* repacking (the new pack first, then the loose files and packs it replaces):
   exactly the same objects are readable at every instant, refs untouched *)
Theorem repack_crash_safe : forall s0 c keep old k, ~ In c old ->
  (forall o, In o keep -> has s0 o = true) ->
  (forall d os o, In d old -> In (d, os) (conts s0) -> In o os -> In o keep) ->
  let s := run s0 (firstn k (p_repack c keep old)) in
  (forall o, has s o = has s0 o) /\ loose s = loose s0 /\ packed s = packed s0.
Proof. intros s0 c keep old k F K O. apply repack_prefixes; assumption. Qed.
Print Assumptions repack_crash_safe.

(* the hypotheses are satisfiable: a commit on top of an existing one *)
Example commit_instance :
  let deps := fun o => match o with 3 => [2; 0] | 2 => [1] | _ => [] end in
  let s0 := {| conts := [(10, [0])]; loose := [(0, 0)]; packed := [] |} in
  consistent deps s0 /\ ordered deps s0 [(11, [1]); (12, [2]); (13, [3])] /\
  has (run s0 (map (fun c => SAddC (fst c) (snd c)) [(11, [1]); (12, [2]); (13, [3])])) 3 = true.
Proof.
  cbv zeta. split; [split|split].
  - intros o H d Hd. cbn in H. destruct o as [|[|[|[|o]]]]; cbn in *; try discriminate; contradiction.
  - intros r w H. unfold resolve in H. destruct r; cbn in H; [inversion H; subst; reflexivity|discriminate].
  - cbn. repeat split; intros o H d Hd;
      repeat (destruct H as [<-|H]; [cbn in Hd; repeat (destruct Hd as [<-|Hd]; [reflexivity|]); try contradiction|]); contradiction.
  - reflexivity.
Qed.
