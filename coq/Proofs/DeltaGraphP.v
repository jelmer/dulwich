(* Proofs/DeltaGraphP.v — resolving a pack (the iterator) and reading one entry of it (the read path) both
   terminate, and succeed on exactly the entries whose chain of bases ends in a full object *)
From DV Require Import ListFacts DeltaGraph.

Lemma positions_spec f es : forall k i,
  In i (positions f es k) <-> exists j e, i = k + j /\ nth_error es j = Some e /\ f e = true.
Proof.
  induction es as [|e r IH]; intros k i; cbn [positions].
  - split; [contradiction|]. intros ([|j] & e & _ & H & _); discriminate.
  - assert (R : In i (positions f r (S k)) <-> exists j e0, i = k + S j /\ nth_error (e :: r) (S j) = Some e0 /\ f e0 = true).
    { rewrite IH. setoid_rewrite <- plus_n_Sm. reflexivity. }
    destruct (f e) eqn:F; cbn [In]; rewrite R; split.
    + intros [<-|(j & H)]; [exists 0, e; auto|exists (S j); exact H].
    + intros ([|j] & H); [left; destruct H as (_ & -> & _); lia|right; exists j; exact H].
    + intros (j & H). exists (S j). exact H.
    + intros ([|j] & e0 & Hi & H & G); [cbn in H; congruence|exists j, e0; auto].
Qed.

Lemma positions_nodup f es : forall k, NoDup (positions f es k).
Proof.
  induction es as [|e r IH]; intros k; cbn [positions]; [constructor|].
  destruct (f e); [|apply IH]. constructor; [|apply IH]. intros H. apply positions_spec in H. destruct H as (j & _ & H & _). lia.
Qed.

Lemma in_unresolved es s i : In i (unresolved es s) <-> i < length es /\ ~ In i (out s).
Proof. unfold unresolved. rewrite filter_In, in_seq, negb_true_iff, mem_nat_notIn. cbn. intuition lia. Qed.

Section Pack.
  Variable es : list entry.

  (* what record() sorts the entries into *)
  Lemma in_fulls i : In i (positions is_full es 0) <-> nth_error es i = Some EFull.
  Proof.
    rewrite positions_spec. split.
    - intros (j & [|b] & -> & H & F); [exact H|discriminate].
    - intros H. exists i, EFull. auto.
  Qed.

  Lemma in_waiting b i : In i (waiting es b) <-> nth_error es i = Some (EDelta b).
  Proof.
    unfold waiting. rewrite positions_spec. split.
    - intros (j & [|b'] & -> & H & F); [discriminate|]. apply Nat.eqb_eq in F. subst b'. exact H.
    - intros H. exists i, (EDelta b). split; [reflexivity|]. split; [exact H|apply Nat.eqb_refl].
  Qed.

  (* the chain of bases of entry i ends in a full object *)
  Definition resolvable (i : nat) : Prop := exists k, reaches es k i = true.

  Lemma resolvable_full i : nth_error es i = Some EFull -> resolvable i.
  Proof. intros E. exists 1. cbn. rewrite E. reflexivity. Qed.

  Lemma resolvable_delta i b : nth_error es i = Some (EDelta b) -> resolvable b -> resolvable i.
  Proof. intros E [k Hk]. exists (S k). cbn. rewrite E. exact Hk. Qed.

  Lemma resolvable_bound i : resolvable i -> i < length es.
  Proof. intros [[|k] H]; [discriminate|]. apply nth_error_Some. intros N. cbn in H. rewrite N in H. discriminate. Qed.

  (* todo ++ out holds each full entry and each delta whose base has been put out, once; the deltas on a base not
     yet put out still wait in pending *)
  Record dg_inv (s : st) : Prop := {
    dg_nodup : NoDup (todo s ++ out s);
    dg_found : forall i, In i (todo s ++ out s) <->
      nth_error es i = Some EFull \/ exists b, nth_error es i = Some (EDelta b) /\ In b (out s);
    dg_pend : forall b, pending s b = if existsb (Nat.eqb b) (out s) then [] else waiting es b;
    dg_sound : forall i, In i (todo s ++ out s) -> resolvable i
  }.

  Lemma init_inv : dg_inv (init es).
  Proof.
    constructor; cbn [init todo pending out]; rewrite ?app_nil_r.
    - apply positions_nodup.
    - intros i. rewrite in_fulls. split; [auto|]. intros [H|(b & _ & [])]. exact H.
    - reflexivity.
    - intros i H. apply resolvable_full, in_fulls, H.
  Qed.

  Lemma step_inv s : dg_inv s -> dg_inv (step s).
  Proof.
    intros Hinv. unfold step. destruct (todo s) as [|x rest] eqn:T; [exact Hinv|].
    destruct Hinv as [ND FD PE SO]. rewrite T in *.
    assert (Xn : ~ In x (out s)).
    { apply NoDup_app_iff in ND. apply ND. left. reflexivity. }
    rewrite (PE x), (proj2 (mem_nat_notIn x (out s)) Xn).
    assert (Eq : forall i, In i ((waiting es x ++ rest) ++ x :: out s) <->
                           nth_error es i = Some (EDelta x) \/ In i ((x :: rest) ++ out s)).
    { intros i. rewrite <- in_waiting, <- app_assoc, !in_app_iff. cbn [In]. tauto. }
    constructor; cbn [todo pending out].
    - rewrite <- app_assoc. apply NoDup_app; [apply positions_nodup|apply NoDup_middle; exact ND|].
      (* a delta on x that was found already would have x popped already *)
      intros i Hi Hi'. apply in_waiting in Hi.
      assert (F : In i ((x :: rest) ++ out s)) by (cbn [app In]; rewrite in_app_iff in *; cbn [In] in Hi'; tauto).
      apply FD in F. destruct F as [F|(b & F & Hb)]; congruence.
    - intros i. rewrite Eq, FD. cbn [In]. split.
      + intros [H|[H|(b & H & Hb)]]; eauto.
      + intros [H|(b & H & [<-|Hb])]; eauto.
    - intros b. cbn [existsb]. destruct (Nat.eqb b x); [reflexivity|apply PE].
    - intros i H. apply Eq in H. destruct H as [H|H]; [|apply SO; exact H].
      eapply resolvable_delta; [exact H|]. apply SO. left. reflexivity.
  Qed.

  (* [length es] iterations suffice: every iteration adds to [out], and what has been found is a duplicate-free
     list of entries *)
  Lemma run_spec : forall f s, dg_inv s -> length es <= f + length (out s) ->
    exists s', run f s = Some s' /\ dg_inv s' /\ todo s' = [].
  Proof.
    induction f as [|f IH]; intros s Hinv H; cbn [run]; destruct (todo s) as [|x r] eqn:T; eauto.
    - (* x to do and no fuel: out alone would be as long as es, and x is found besides *)
      exfalso. assert (L : length (todo s ++ out s) <= length es).
      { apply NoDup_bounded_length; [apply Hinv|]. intros i Hi. apply resolvable_bound, (dg_sound s Hinv), Hi. }
      rewrite T, app_length in L. cbn [length] in L. lia.
    - (* x is popped *) apply IH; [apply step_inv; exact Hinv|]. unfold step. rewrite T. cbn [out length]. lia.
  Qed.

  Lemma final_exact s : dg_inv s -> todo s = [] -> forall i, In i (out s) <-> resolvable i.
  Proof.
    intros [_ FD _ SO] T. rewrite T in *. cbn [app] in *. intros i. split; [apply SO|].
    intros [k Hk]. revert i Hk. induction k as [|k IH]; intros i Hk; [discriminate|].
    cbn [reaches] in Hk. apply FD. destruct (nth_error es i) as [[|b]|]; [auto| |discriminate].
    right. exists b. auto.
  Qed.

  Theorem resolve_spec : exists r, NoDup r /\ (forall i, In i r <-> resolvable i) /\
    (resolve es = Some (Some r) /\ (forall i, i < length es -> resolvable i) \/
     resolve es = Some None /\ exists i, i < length es /\ ~ resolvable i).
  Proof.
    unfold resolve. destruct (run_spec (length es) (init es) init_inv) as (s & -> & Hinv & T); [cbn; lia|].
    pose proof (final_exact s Hinv T) as F. exists (out s).
    split; [pose proof (dg_nodup s Hinv) as N; rewrite T in N; exact N|]. split; [exact F|].
    pose proof (in_unresolved es s) as U. destruct (unresolved es s) as [|u us].
    - left. split; [reflexivity|]. intros i L. apply F.
      destruct (in_dec Nat.eq_dec i (out s)) as [X|X]; [exact X|]. destruct (proj2 (U i) (conj L X)).
    - right. split; [reflexivity|]. exists u. rewrite <- F. apply U. left. reflexivity.
  Qed.
End Pack.

Lemma chase_total es : forall fuel rest i, NoDup (i :: rest) -> (forall x, In x rest -> x < length es) ->
  length es + 1 <= fuel + length rest -> chase es fuel (i :: rest) i <> None.
Proof.
  induction fuel as [|f IH]; intros rest i N B L.
  - exfalso. inversion N as [|? ? _ N']; subst. pose proof (NoDup_bounded_length _ _ N' B). lia.
  - cbn [chase]. destruct (nth_error es i) as [[|b]|] eqn:E; try discriminate.
    destruct (existsb (Nat.eqb b) (i :: rest)) eqn:X; [discriminate|].
    apply IH.
    + constructor; [|exact N]. apply mem_nat_notIn. exact X.
    + intros x [<- |Hx]; [|apply B; exact Hx]. apply nth_error_Some. congruence.
    + cbn [length]. lia.
Qed.

Lemma chase_sound es : forall fuel seen i d, chase es fuel seen i = Some (Some d) -> resolvable es i.
Proof.
  induction fuel as [|f IH]; intros seen i d H; cbn [chase] in H; [discriminate|].
  destruct (nth_error es i) as [[|b]|] eqn:E; try discriminate.
  - apply resolvable_full. exact E.
  - destruct (existsb (Nat.eqb b) seen); [discriminate|]. eapply resolvable_delta; [exact E|]. eapply IH. exact H.
Qed.

Lemma reaches_mono es : forall k i, reaches es k i = true -> reaches es (S k) i = true.
Proof.
  induction k as [|k IH]; intros i H; [discriminate|].
  cbn [reaches] in H |- *. destruct (nth_error es i) as [[|b]|]; try exact H. apply IH. exact H.
Qed.

Lemma reaches_min es : forall k i, reaches es k i = true -> exists m, reaches es (S m) i = true /\ reaches es m i = false.
Proof.
  induction k as [|k IH]; intros i H; [discriminate|].
  destruct (reaches es k i) eqn:R; [apply IH; exact R|]. exists k. split; assumption.
Qed.

(* an entry whose chain has exactly k deltas is not refused, and k is what is counted: each base is one step
   nearer to the full object, and everything visited before is farther away *)
Lemma chase_complete es : forall fuel k rest i,
  reaches es (S k) i = true -> reaches es k i = false -> (forall x, In x rest -> reaches es (S k) x = false) ->
  chase es fuel (i :: rest) i = None \/ chase es fuel (i :: rest) i = Some (Some (length rest + k)).
Proof.
  induction fuel as [|f IH]; intros k rest i R1 R0 B; [left; reflexivity|].
  cbn [chase]. cbn [reaches] in R1. destruct (nth_error es i) as [[|b]|] eqn:E; try discriminate.
  - right. destruct k as [|k]; [|cbn [reaches] in R0; rewrite E in R0; discriminate]. cbn [length]. do 2 f_equal. lia.
  - destruct k as [|k]; [discriminate|].
    assert (Rb0 : reaches es k b = false) by (cbn [reaches] in R0; rewrite E in R0; exact R0).
    assert (B' : forall x, In x (i :: rest) -> reaches es (S k) x = false).
    { intros x [<- |Hx]; [exact R0|]. specialize (B x Hx).
      destruct (reaches es (S k) x) eqn:Y; [apply reaches_mono in Y; congruence|reflexivity]. }
    destruct (existsb (Nat.eqb b) (i :: rest)) eqn:X.
    + apply mem_nat_In, B' in X. congruence.
    + replace (length rest + S k) with (length (i :: rest) + k) by (cbn [length]; lia). apply IH; assumption.
Qed.

Lemma read_entry_total es i : read_entry es i <> None.
Proof.
  unfold read_entry. apply chase_total; [constructor; [intros []|constructor]|intros x []|cbn; lia].
Qed.

Theorem read_entry_depth es i k : reaches es (S k) i = true -> reaches es k i = false -> read_entry es i = Some (Some k).
Proof.
  intros R1 R0. destruct (chase_complete es (S (length es)) k [] i R1 R0) as [N|D]; [intros x []| |exact D].
  destruct (read_entry_total es i N).
Qed.
