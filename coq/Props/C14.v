(* Props/C14.v — optional acceleration data never changes an answer.
   The graph algorithms take the parent relation as a function; a commit-graph
   file is one source of that function, the commit objects another.  Sources
   that agree on every commit give the same answers. *)
From DV Require Import Mof Lca AccelP.

(* merge bases and fast-forward tests: same result from any two sources of the
   parents of every commit, for every DAG, query and pop order *)
Theorem merge_base_independent_of_parent_source : forall (p1 p2 : node -> list node) pick n fuel c1 c2s,
  (forall v, p1 v = p2 v) ->
  find_lcas p1 pick n fuel c1 c2s = find_lcas p2 pick n fuel c1 c2s /\
  forall c2, can_fast_forward p1 pick n fuel c1 c2 = can_fast_forward p2 pick n fuel c1 c2.
Proof. intros p1 p2 pick n fuel c1 c2s E. split; [apply find_lcas_ext; exact E|intros c2; apply can_fast_forward_ext; exact E]. Qed.
Print Assumptions merge_base_independent_of_parent_source.

(* the reachable-object set and the objects selected for a transfer likewise *)
Theorem reachability_and_transfer_independent_of_parent_source : forall kind_of (p1 p2 cdeps : nat -> list nat),
  (forall o, p1 o = p2 o) ->
  (forall fuel roots, find_reachable p1 fuel roots = find_reachable p2 fuel roots) /\
  (forall fuel haves wants, select kind_of p1 cdeps fuel haves wants = select kind_of p2 cdeps fuel haves wants).
Proof. intros kind_of p1 p2 cdeps E. split; [intros; apply find_reachable_ext; exact E|intros; apply select_parents_ext; exact E]. Qed.
Print Assumptions reachability_and_transfer_independent_of_parent_source.

From DV Require Import CommitGraph CommitGraphP.

(* for every list of commits with any number of parents each (octopus merges of
   any width included), all of them in the file: the parents read back from the
   two slots and the extra edge list are the parents written, in order — the
   hypothesis the two theorems above need of this source *)
Theorem commit_graph_parents_roundtrip : forall cs, closed cs ->
  decode_graph (encode_graph cs) = map (fun ps => Some (positions ps)) cs.
Proof.
  intros cs C. unfold decode_graph, encode_graph. rewrite enc_rows_length.
  exact (enc_decode cs 0 [] _ (closed_positions cs C) (proj1 C) eq_refl).
Qed.
Print Assumptions commit_graph_parents_roundtrip.

(* without that hypothesis the statement is false of the code: a parent that is
   not in the file is written as "no parent" and the commit reads back as a root
   (write_commit_graph(reachable=False); known finding) *)
Theorem unclosed_commit_graph_keeps_parents_refuted : exists cs i,
  nth_error cs i = Some [None] /\ nth_error (decode_graph (encode_graph cs)) i = Some (Some []).
Proof. exists [[None]], 0%nat. vm_compute. split; reflexivity. Qed.
Print Assumptions unclosed_commit_graph_keeps_parents_refuted.

Local Open Scope Z_scope.
Example octopus_merges_share_one_edge_list :
  encode_graph [[]; [Some 0]; [Some 0; Some 1]; [Some 0; Some 1; Some 2]; [Some 3; Some 2; Some 1; Some 0]] =
    ([(NONE, NONE); (0, NONE); (0, 1); (0, FLAG + 0); (3, FLAG + 2)], [1; 2 + FLAG; 2; 1; 0 + FLAG]) /\
  closed [[]; [Some 0]; [Some 0; Some 1]; [Some 0; Some 1; Some 2]; [Some 3; Some 2; Some 1; Some 0]].
Proof.
  split; [vm_compute; reflexivity|]. split; [vm_compute; discriminate|].
  intros ps H p Hp. cbn in H. repeat (destruct H as [<-|H]; [cbn in Hp; repeat (destruct Hp as [<-|Hp]; [eexists; split; [reflexivity|cbn; lia]|]); contradiction|]). contradiction.
Qed.

(* ---------- the peeled values cached in packed-refs (Model/PeeledCache.v) ---------- *)
From DV Require Import PeeledCache PeeledCacheP.

(* after ANY sequence of loose writes, deletions, add_packed_refs, pack_refs and git pack-refs (git writing true
   peeled values) in which dulwich itself only ever puts plain values into packed-refs -- values that are not
   tags, under names that carry no peeled line: branches, lightweight tags -- whatever
   DiskRefsContainer.get_peeled answers is the peeled value of what the ref currently is: the cache never
   changes an answer, it only saves peeling *)
Theorem peeled_cache_never_lies_partial : forall peel ops r p,
  run_plain peel (empty_state) ops -> get_peeled (run peel empty_state ops) r = Some p ->
  exists v, current (run peel empty_state ops) r = Some v /\ p = peel v.
Proof. intros peel ops r p. apply peeled_cache_sound, empty_ok. Qed.
Print Assumptions peeled_cache_never_lies_partial.

(* the full statement (any sequence) is false of the code: _write_packed_refs writes the "peeled" header and
   the table of peeled values it read earlier, and peels nothing.  A tag moved to another annotated tag and
   packed again keeps the peeled value of the old one; an annotated tag packed for the first time is declared
   "not a tag" (recorded finding: an existing test requires this writer) *)
Theorem peeled_cache_never_lies_refuted :
  (current (run ex_peel empty_state ex_moved) 0%nat = Some 12%Z /\ get_peeled (run ex_peel empty_state ex_moved) 0%nat = Some 1%Z /\ ex_peel 12 = 2%Z) /\
  (current (run ex_peel empty_state ex_new) 0%nat = Some 11%Z /\ get_peeled (run ex_peel empty_state ex_new) 0%nat = Some 11%Z /\ ex_peel 11 = 1%Z).
Proof. vm_compute. auto. Qed.
Print Assumptions peeled_cache_never_lies_refuted.
