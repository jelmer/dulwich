(* Proofs/RefCasP.v — compare-and-swap under the ref lock; commits are never lost *)
From DV Require Import ListFacts RefCas Lock.

Definition after_read (p : pc) : bool := match p with PReadTip => false | _ => true end.
(* the operation has taken effect: a deletion reports it only after unlocking *)
Definition succeeded (p : pc) : bool := match p with PUnlock RTrue | PDone RTrue => true | _ => false end.

(* h: the values the ref has held, newest first.  Every id c among them is recorded in par with the value
   it replaced, the next in h, as its parent *)
Fixpoint linked (par : list (nat * option nat)) (h : list (option nat)) : Prop :=
  match h with
  | [] => True
  | a :: r => (match a, r with Some c, v :: _ => In (c, v) par | _, _ => True end) /\ linked par r
  end.

Definition commit_or_read (k : kind) : Prop := match k with KCommit _ | KRead => True | _ => False end.

(* What holds of one actor a while the ref is r, its history h and the recorded parents pars: about to write,
   its condition is true of r; a committer that has read the branch has recorded what it read as the parent
   of its commit; a commit reported as made is in the history *)
Record actor_inv (r : option nat) (h : list (option nat)) (pars : list (nat * option nat)) (a : actor) : Prop := {
  ai_cond : a_pc a = PWrite -> cond a r = true;
  ai_parent : forall c, a_kind a = KCommit c -> after_read (a_pc a) = true -> In (c, a_tip a) pars;
  ai_done : forall c, a_kind a = KCommit c -> succeeded (a_pc a) = true -> In (Some c) h
}.

(* ks: the operations, which no step changes *)
Record refcas_inv (ks : nat -> kind) (s : state) : Prop := {
  rc_kind : forall j, a_kind (acts s j) = ks j;
  rc_lock : owned_by (lock s) (fun j => holds_lock (a_pc (acts s j)));
  rc_ref : exists r, hist s = ref s :: r;
  (* when only commits and reads run, each value's parent is the value it replaced *)
  rc_link : (forall j, commit_or_read (ks j)) -> linked (parent s) (hist s);
  rc_actor : forall j, actor_inv (ref s) (hist s) (parent s) (acts s j)
}.

Lemma init_inv r0 l : refcas_inv (fun j => a_kind (acts (init r0 l) j)) (init r0 l).
Proof.
  assert (P : forall i, a_pc (nth i (map mk l) idle) = PReadTip \/ nth i (map mk l) idle = idle).
  { intros i. destruct (nth_map_cases mk l idle i) as [(k & _ & ->)| ->]; auto. }
  constructor; cbn [init ref lock acts hist parent].
  - reflexivity.
  - apply unowned. intros i. destruct (P i) as [A|A]; rewrite A; reflexivity.
  - exists []. reflexivity.
  - intros _. destruct r0; cbn; auto.
  - intros i. constructor; destruct (P i) as [A|A]; rewrite A; try discriminate; intros c _; discriminate.
Qed.

Lemma inv_upd ks s i a' s' : refcas_inv ks s -> acts s' = upd (acts s) i a' -> a_kind a' = ks i ->
  lock_move i (lock s) (holds_lock (a_pc (acts s i))) (lock s') (holds_lock (a_pc a')) ->
  (exists r, hist s' = ref s' :: r) ->
  ((forall j, commit_or_read (ks j)) -> linked (parent s') (hist s')) ->
  actor_inv (ref s') (hist s') (parent s') a' ->
  (forall j, j <> i -> actor_inv (ref s) (hist s) (parent s) (acts s j) -> actor_inv (ref s') (hist s') (parent s') (acts s j)) ->
  refcas_inv ks s'.
Proof.
  intros [K L _ _ Lo] EA EK M R' K' La Fr. constructor; rewrite ?EA.
  - apply (upd_all (fun j a => a_kind a = ks j)); auto.
  - exact (owned_by_upd (fun a => holds_lock (a_pc a)) _ _ _ _ _ L M).
  - exact R'.
  - exact K'.
  - apply (upd_all (fun _ a => actor_inv _ _ _ a)); [exact La|]. intros j N. exact (Fr j N (Lo j)).
Qed.

(* actor i only moves to p', keeping, taking or releasing the lock: what is owed is its own part at p' *)
Lemma inv_move ks s i p' lk' : refcas_inv ks s ->
  lock_move i (lock s) (holds_lock (a_pc (acts s i))) lk' (holds_lock p') ->
  actor_inv (ref s) (hist s) (parent s) (set_pc (acts s i) p') ->
  refcas_inv ks {| ref := ref s; lock := lk'; acts := upd (acts s) i (set_pc (acts s i) p'); hist := hist s; parent := parent s |}.
Proof. intros Hi M A. apply (inv_upd ks s i (set_pc (acts s i) p')); try reflexivity; try apply Hi; auto. Qed.

Lemma linked_weaken par x h : linked par h -> linked (x :: par) h.
Proof.
  induction h as [|a r IH]; [trivial|]. cbn [linked]. intros [A B]. split; [|auto].
  destruct a; [|exact I]. destruct r; [exact I|]. right. exact A.
Qed.

(* a committer reads the branch: the commit it builds has that value as its parent *)
Lemma inv_read_tip ks s i c p' : refcas_inv ks s -> a_kind (acts s i) = KCommit c -> a_pc (acts s i) = PReadTip ->
  holds_lock p' = false -> p' <> PWrite -> succeeded p' = false ->
  refcas_inv ks {| ref := ref s; lock := lock s; acts := upd (acts s) i {| a_kind := a_kind (acts s i); a_pc := p'; a_tip := ref s |};
            hist := hist s; parent := (c, ref s) :: parent s |}.
Proof.
  intros Hi Ki E NL NW NS.
  apply (inv_upd ks s i {| a_kind := a_kind (acts s i); a_pc := p'; a_tip := ref s |}); cbn [ref lock acts hist parent a_kind a_pc]; try reflexivity; try apply Hi.
  - rewrite E, NL. apply lock_kept.
  - intros F. apply linked_weaken, (rc_link _ _ Hi), F.
  - constructor; cbn [a_kind a_pc a_tip]; [contradiction| |congruence].
    intros d K _. rewrite Ki in K. injection K as ->. left. reflexivity.
  - intros j _ [W P D]. constructor; auto. intros d K H. right. exact (P d K H).
Qed.

(* the write, with the lock held and the condition true of the value replaced; v is the new value of the ref *)
Lemma inv_write ks s i v lk' p' : refcas_inv ks s -> a_pc (acts s i) = PWrite ->
  lock_move i (lock s) true lk' (holds_lock p') -> p' <> PWrite ->
  (is_del (acts s i) = false -> v = newval (acts s i)) ->
  refcas_inv ks {| ref := v; lock := lk'; acts := upd (acts s) i (set_pc (acts s i) p'); hist := v :: hist s; parent := parent s |}.
Proof.
  intros Hi E M NW Hv. destruct (rc_actor _ _ Hi i) as [C P _]. specialize (C E).
  assert (Vc : forall c, a_kind (acts s i) = KCommit c -> v = Some c).
  { intros c K. unfold is_del, newval in Hv. rewrite K in Hv. exact (Hv eq_refl). }
  apply (inv_upd ks s i (set_pc (acts s i) p')); cbn [ref lock acts hist parent]; try reflexivity; try apply Hi.
  - rewrite E. exact M.
  - exists (hist s). reflexivity.
  - (* a committer: the value replaced is the one it read, the parent of its commit *)
    intros F. pose proof (F i) as Fi. rewrite <- (rc_kind _ _ Hi i) in Fi. unfold cond in C.
    destruct (a_kind (acts s i)) as [| | | |c|] eqn:Ki; try contradiction; [|discriminate C].
    rewrite (Vc c eq_refl). apply onat_eqb_eq in C. pose proof (rc_link _ _ Hi F) as LK.
    destruct (rc_ref _ _ Hi) as [r R]. rewrite R in *. split; [|exact LK]. rewrite C. apply (P c eq_refl). rewrite E. reflexivity.
  - constructor; cbn [set_pc a_pc a_kind a_tip]; [intros X; destruct (NW X)| |intros c K _; left; exact (Vc c K)].
    intros c K _. apply (P c K). rewrite E. reflexivity.
  - (* the lock: nobody else is about to write *)
    intros j N [W Pj D]. constructor; auto; [|intros c K H; right; exact (D c K H)].
    intros H. destruct N. apply (owner_unique _ _ j i (rc_lock _ _ Hi)); [rewrite H|rewrite E]; reflexivity.
Qed.

Lemma step_inv ks s i : refcas_inv ks s -> refcas_inv ks (step s i).
Proof.
  (* P, D: what actor i has recorded and reported at the pc it is at; a move passes them on to the next pc *)
  intros Hi. destruct (rc_actor _ _ Hi i) as [_ P D]. unfold step. destruct (a_pc (acts s i)) eqn:E.
  - (* PReadTip: only a committer has something to record; the others claim nothing at any pc but PWrite *)
    destruct (a_kind (acts s i)) eqn:K.
    + (* KCas *) apply inv_move; [exact Hi|rewrite E; apply lock_kept|]. constructor; cbn; rewrite ?K; discriminate.
    + (* KAdd *) destruct (ref s); (apply inv_move; [exact Hi|rewrite E; apply lock_kept|]); constructor; cbn; rewrite ?K; discriminate.
    + (* KSet *) apply inv_move; [exact Hi|rewrite E; apply lock_kept|]. constructor; cbn; rewrite ?K; discriminate.
    + (* KDel *) apply inv_move; [exact Hi|rewrite E; apply lock_kept|]. constructor; cbn; rewrite ?K; discriminate.
    + (* KCommit *) rewrite <- K. apply inv_read_tip; [exact Hi|exact K|exact E|..]; destruct (ref s); (reflexivity || discriminate).
    + (* KRead *) apply inv_move; [exact Hi|rewrite E; apply lock_kept|]. constructor; cbn; rewrite ?K; discriminate.
  - (* PReadAdd *) destruct (ref s); (apply inv_move; [exact Hi|rewrite E; apply lock_kept|]); (constructor; [discriminate|exact P|discriminate]).
  - (* PLock *) destruct (lock s) eqn:LK; (apply inv_move; [exact Hi|rewrite E, ?LK; constructor|]); (constructor; [discriminate|exact P|discriminate]).
  - (* PCheck *) destruct (cond (acts s i) (ref s)) eqn:CD; (apply inv_move; [exact Hi|rewrite E; apply lock_kept|]).
    + (* the condition holds: on to PWrite *) constructor; [intros _; exact CD|exact P|discriminate].
    + (* it does not: on to PUnlock RFalse *) constructor; [discriminate|exact P|discriminate].
  - (* PWrite *) destruct (is_del (acts s i)) eqn:DL.
    + apply inv_write; [exact Hi|exact E|apply lock_kept|discriminate|rewrite DL; discriminate].
    + apply inv_write; [exact Hi|exact E|apply lock_released|discriminate|reflexivity].
  - (* PUnlock *) apply inv_move; [exact Hi|rewrite E; apply lock_released|]. constructor; [discriminate|exact P|exact D].
  - (* PDone *) exact Hi.
Qed.

Lemma run_inv r0 l sched : refcas_inv (fun j => a_kind (acts (init r0 l) j)) (run (init r0 l) sched).
Proof. apply (fold_left_inv step (refcas_inv _)); [intros s i _; apply step_inv|apply init_inv]. Qed.

(* only the write changes the ref or the list of its values *)
Lemma step_quiet s i : a_pc (acts s i) = PWrite \/ ref (step s i) = ref s /\ hist (step s i) = hist s.
Proof.
  unfold step. destruct (a_pc (acts s i)).
  - (* PReadTip: the case split on ref s rewrites the left sides only; R sets that right *)
    right. destruct (a_kind (acts s i)), (ref s) eqn:R; cbn; auto.
  - (* PReadAdd *) right. destruct (ref s) eqn:R; cbn; auto.
  - (* PLock *) right. destruct (lock s); cbn; auto.
  - (* PCheck *) right. destruct (cond (acts s i) (ref s)); cbn; auto.
  - (* PWrite *) left. reflexivity.
  - (* PUnlock *) right. cbn. auto.
  - (* PDone *) right. auto.
Qed.

Lemma change_is_cas ks s i : refcas_inv ks s ->
  ref (step s i) <> ref s \/ hist (step s i) <> hist s ->
  a_pc (acts s i) = PWrite /\ lock s = Some i /\ cond (acts s i) (ref s) = true.
Proof.
  intros Hi Ch. destruct (step_quiet s i) as [E|[R H]]; [|destruct Ch; contradiction].
  split; [exact E|]. split; [apply (rc_lock _ _ Hi); rewrite E; reflexivity|apply (rc_actor _ _ Hi i); exact E].
Qed.

Lemma init_commits r0 l : Forall commit_or_read l -> forall i, commit_or_read (a_kind (acts (init r0 l) i)).
Proof.
  intros F i. cbn [init acts]. destruct (nth_map_cases mk l idle i) as [(k & H & ->)| ->]; [|exact I].
  rewrite Forall_forall in F. apply F. exact (nth_error_In l i H).
Qed.
