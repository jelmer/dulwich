(* Props/C17.v — checkout never leaves the work tree or enters .git: the path
   validators. *)
From DV Require Import PathSafe PathSafeP.

(* a path accepted by validate_path (default or NTFS element validator) has no
   empty, "." or ".." component and none that folds to ".git": joined to the
   work-tree root it names a descendant of the root that is not .git or below it *)
Theorem validated_path_stays_inside : forall p,
  validate_path valid_default p = true \/ validate_path valid_ntfs p = true ->
  let cs := split_on 47 p [] in
  normalize cs [] = Some cs /\ cs <> [] /\
  Forall (fun c => c <> [] /\ c <> DOT /\ c <> DOTDOT /\ lower c <> DOTGIT) cs.
Proof.
  intros p [H|H].
  - apply (validated_path_inside valid_default); auto.
  - apply (validated_path_inside valid_ntfs); [exact valid_ntfs_implies_default|exact H].
Qed.
Print Assumptions validated_path_stays_inside.

(* core.protectNTFS never accepts what the default rules refuse *)
Theorem ntfs_validator_is_stricter : forall e, valid_ntfs e = true -> valid_default e = true.
Proof. exact valid_ntfs_implies_default. Qed.
Print Assumptions ntfs_validator_is_stricter.

(* every NTFS spelling of .git is refused: any case of "git", any run of trailing
   dots and spaces, optionally followed by an alternate-data-stream suffix; and
   the 8.3 short name git~1 likewise *)
Theorem ntfs_spellings_refused : forall g i t pad rest,
  lower [g; i; t] = [103; 105; 116] -> forallb dot_or_space pad = true ->
  (rest = [] \/ exists x, rest = 58 :: x) ->
  (forallb (fun c => negb (c =? 92)) (46 :: g :: i :: t :: pad ++ rest) = true ->
   valid_ntfs (46 :: g :: i :: t :: pad ++ rest) = false) /\
  (forallb (fun c => negb (c =? 92)) (g :: i :: t :: 126 :: 49 :: pad ++ rest) = true ->
   valid_ntfs (g :: i :: t :: 126 :: 49 :: pad ++ rest) = false).
Proof.
  intros g i t pad rest L P R. destruct (ntfs_dotgit_spellings g i t pad rest L P R) as [D1 D2].
  split; intros NB; (eapply ntfs_dotgit_refused; [rewrite (split_no_sep 92 _ [] NB); left; reflexivity|assumption]).
Qed.
Print Assumptions ntfs_spellings_refused.

(* .git::$INDEX_ALLOCATION and friends *)
Example adversarial_names :
  map valid_ntfs [[46;71;73;84]; [46;103;105;116;32]; [46;103;105;116;46]; [103;105;116;126;49];
                  [46;103;105;116;58;58;36;73]; [46;46]; [46]; []; [120;92;46;103;105;116]; [46;103;105;116;120]]
  = [false; false; false; false; false; false; false; false; false; true].
Proof. vm_compute. reflexivity. Qed.
