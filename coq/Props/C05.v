(* Props/C05.v — what the sender selects for a transfer is enough and not more. *)
From DV Require Import Mof MofP.

(* Completeness: for wants that are commits, in an object graph where only tags
   name commits or tags through their content, commits alone have parents and a
   tag names its target: whatever the receiver holds — any set R closed under
   "refers to" and containing the haves the sender knows — everything reachable
   from the wants is with the receiver already or among the objects selected *)
Theorem transfer_is_complete : forall kind_of parents cdeps,
  (forall t x, kind_of t = Some (KTag x) -> In x (cdeps t)) ->
  (forall o, parents o <> [] -> kind_of o = Some KCommit) ->
  (forall o p x, In p (parents o) -> kind_of p <> Some (KTag x)) ->
  (forall o d, In d (cdeps o) -> kind_of d = Some KCommit -> exists x, kind_of o = Some (KTag x)) ->
  (forall o d x, In d (cdeps o) -> kind_of d = Some (KTag x) -> exists y, kind_of o = Some (KTag y)) ->
  forall (R : nat -> Prop), (forall o, R o -> forall d, In d (fd parents cdeps o) -> R d) ->
  forall fuel haves wants sent,
  (forall w, In w wants -> kind_of w = Some KCommit) ->
  select kind_of parents cdeps fuel haves wants = Some sent ->
  (forall h, In h haves -> kind_of h <> None -> R h) ->
  forall w, In w wants -> forall o, reachable (fd parents cdeps) [w] o -> R o \/ In o sent.
Proof. intros kind_of parents cdeps HT Hp Hk Hc Hg R Rc fuel haves wants sent. apply select_complete; assumption. Qed.
Print Assumptions transfer_is_complete.

(* Minimality: every selected object is reachable from something that was asked
   for (any wants: commits, tags, trees, blobs) *)
Theorem transfer_is_minimal : forall kind_of parents cdeps,
  (forall t x, kind_of t = Some (KTag x) -> In x (cdeps t)) ->
  forall fuel haves wants sent,
  select kind_of parents cdeps fuel haves wants = Some sent ->
  forall x, In x sent -> exists w, In w wants /\ reachable (fd parents cdeps) [w] x.
Proof. intros kind_of parents cdeps HT fuel haves wants sent. apply select_minimal. exact HT. Qed.
Print Assumptions transfer_is_minimal.

Example fetch_on_top_of_a_known_commit :
  let kind_of := fun o => match o with 2 | 4 => Some KCommit | 0 | 1 | 3 => Some KOther | _ => None end in
  let parents := fun o => match o with 4 => [2] | _ => [] end in
  let cdeps := fun o => match o with 1 => [0] | 2 => [1] | 3 => [0] | 4 => [3] | _ => [] end in
  select kind_of parents cdeps 40 [2] [4] = Some [3; 4].
Proof. vm_compute. reflexivity. Qed.
