(* Props/C08.v — ref updates are atomic compare-and-swap; commits are never lost.
   Every statement is about every list of operations (one per actor) and every
   interleaving of their steps. *)
From DV Require Import RefCas RefCasP.

(* the ref changes only in a write made while holding the lock, and the value
   replaced is the one the operation was conditioned on: an update conditioned
   on an old value succeeds only if that value is current at that moment *)
Theorem update_is_compare_and_swap : forall r0 l sched i,
  let s := run (init r0 l) sched in
  ref (step s i) <> ref s \/ hist (step s i) <> hist s ->
  a_pc (acts s i) = PWrite /\ lock s = Some i /\ cond (acts s i) (ref s) = true.
Proof. intros r0 l sched i s. exact (change_is_cas _ s i (run_inv r0 l sched)). Qed.
Print Assumptions update_is_compare_and_swap.

(* at most one actor is between locking and unlocking *)
Theorem ref_lock_is_exclusive : forall r0 l sched i j,
  let s := run (init r0 l) sched in
  holds_lock (a_pc (acts s i)) = true -> holds_lock (a_pc (acts s j)) = true -> i = j.
Proof. intros r0 l sched i j s. exact (Lock.owner_unique _ _ i j (rc_lock _ _ (run_inv r0 l sched))). Qed.
Print Assumptions ref_lock_is_exclusive.

(* several actors committing on one branch (readers alongside): the values the
   branch has held form a chain in which each commit's parent is the value it
   replaced, the branch points at the newest, and every commit reported as
   successful is in that chain *)
Theorem no_commit_is_lost : forall r0 l sched, Forall commit_or_read l ->
  let s := run (init r0 l) sched in
  linked (parent s) (hist s) /\ ref s = hd None (hist s) /\
  forall i c, a_kind (acts s i) = KCommit c -> a_pc (acts s i) = PDone RTrue -> In (Some c) (hist s).
Proof.
  intros r0 l sched F s. pose proof (run_inv r0 l sched) as I. fold s in I.
  split; [exact (rc_link _ _ I (init_commits r0 l F))|split].
  - destruct (rc_ref _ _ I) as [r ->]. reflexivity.
  - intros i c K E. apply (ai_done _ _ _ _ (rc_actor _ _ I i) c K). rewrite E. reflexivity.
Qed.
Print Assumptions no_commit_is_lost.

Example two_committers_one_loses :
  let s := run (init (Some 7) [KCommit 1; KCommit 2]) [0; 1; 0; 0; 0; 1; 1; 1]%nat in
  ref s = Some 1 /\ a_pc (acts s 0%nat) = PDone RTrue /\ a_pc (acts s 1%nat) = PDone RFalse /\
  hist s = [Some 1; Some 7].
Proof. vm_compute. auto. Qed.

(* ---------- the same ref stored as a loose file and/or an entry of packed-refs,
   with any number of concurrent pack_refs (Model/PackedRefs.v) ---------- *)
From DV Require PackedRefsP.
Module Packed.
Import PackedRefs PackedRefsP.

(* with writers whose new values are new (every commit id is) and no deleter:
   whatever the interleaving, a step of pack_refs — locking packed-refs, reading
   the ref, rewriting packed-refs, pruning the loose file — never changes the
   value a reader of the ref finds *)
Theorem pack_refs_never_changes_a_ref : forall l0 p0 l sched i, fresh l0 p0 l ->
  let s := run (init l0 p0 l) sched in
  a_kind (acts s i) = KPack -> visible (step s i) = visible s.
Proof.
  intros l0 p0 l sched i F s K. pose proof (run_inv l0 p0 l sched F) as I. fold s in I. apply step_quiet; [exact I|].
  intros E. pose proof (pr_wf _ I i) as W. rewrite K, E in W. discriminate.
Qed.
Print Assumptions pack_refs_never_changes_a_ref.

(* and the value changes only in the write of an update that holds the ref's
   lock and whose condition is true of the value at that moment; it becomes the
   value that update writes *)
Theorem update_is_compare_and_swap_with_packing : forall l0 p0 l sched i, fresh l0 p0 l ->
  let s := run (init l0 p0 l) sched in
  visible (step s i) <> visible s ->
  a_pc (acts s i) = SWrite /\ rlock s = Some i /\ cond (a_kind (acts s i)) (visible s) = true /\
  visible (step s i) = newval (a_kind (acts s i)).
Proof. intros l0 p0 l sched i F s. exact (change_is_cas s i (run_inv l0 p0 l sched F)). Qed.
Print Assumptions update_is_compare_and_swap_with_packing.

(* the full statement — also with concurrent deleters — is false of the code as
   it is: remove_if_equals does not take packed-refs.lock when the ref has no
   packed entry, so a pack_refs that read the ref before the deletion writes it
   back afterwards (known finding pack-refs-resurrects-deleted-ref) *)
Theorem pack_refs_keeps_deleted_refs_deleted_refuted : exists l0 p0 l sched,
  let s := run (init l0 p0 l) sched in
  news l = [] /\ (forall i, exists r, a_pc (acts s i) = PEnd r) /\
  a_kind (acts s 1%nat) = KDel 7 /\ a_pc (acts s 1%nat) = PEnd RTrue /\ visible s = Some 7.
Proof.
  exists (Some 7), None, [KPack; KDel 7], [0; 0; 1; 1; 1; 1; 1; 0; 0; 0; 0]%nat.
  vm_compute. repeat split; try reflexivity.
  intros [|[|[|i]]]; eexists; reflexivity.
Qed.
Print Assumptions pack_refs_keeps_deleted_refs_deleted_refuted.

Example hypotheses_are_satisfiable : fresh (Some 0) (Some 0) [KPack; KSet 1; KPack; KCas 0 2; KRead].
Proof. repeat split; try reflexivity; [repeat constructor; cbn; intuition discriminate|..]; cbn in H; intuition (subst; discriminate). Qed.

(* two pack_refs and a writer: the schedule that used to bring back the older value *)
Example two_packers_and_a_writer :
  let s := run (init None (Some 0) [KPack; KSet 1; KPack]) [0; 0; 1; 1; 1; 0; 2; 2; 2; 2; 2; 2; 0; 0; 0]%nat in
  visible s = Some 1.
Proof. vm_compute. reflexivity. Qed.
End Packed.
