(* Props/C06.v — push status and server refs. *)
From DV Require Import Receive ReceiveP.

(* non-atomic push over distinct refs: a ref reported ok holds the requested
   value and its old value matched; a ref not reported ok is untouched; refs not
   named are untouched *)
Theorem status_truthful : forall objs cs m m' ss,
  NoDup (map c_ref cs) -> run_plain objs m cs = (m', ss) ->
  length ss = length cs /\
  (forall q, ~ In q (map c_ref cs) -> rget q m' = rget q m) /\
  Forall2 (fun c s => (s = SOk -> requested c m' = true /\ cur m (c_ref c) = c_old c) /\
                      (s <> SOk -> rget (c_ref c) m' = rget (c_ref c) m)) cs ss.
Proof.
  intros objs cs m m' ss Hnd H. destruct (run_plain_pointwise objs cs m m' ss Hnd H) as (-> & U & P).
  split; [apply map_length|]. split; [exact U|]. apply Forall2_map_r. intros c Hc. destruct (P c Hc) as [Ok Ko].
  split; [|exact Ko]. intros Hs. split; [exact (Ok Hs)|apply (validate_ok objs), Hs].
Qed.
Print Assumptions status_truthful.

(* atomic push: every update applied and reported ok, or none applied and none reported ok *)
Theorem atomic_all_or_none : forall objs m cs m' ss,
  NoDup (map c_ref cs) -> run_atomic objs m cs = (m', ss) ->
  (Forall (fun s => s = SOk) ss /\ (forall c, In c cs -> requested c m' = true) /\ length ss = length cs)
  \/ (Forall (fun s => s <> SOk) ss /\ m' = m /\ length ss = length cs).
Proof.
  intros objs m cs m' ss Hnd H. rewrite run_atomic_plain in H by exact Hnd.
  destruct (forallb is_ok (map (validate objs m) cs)) eqn:Ev; inversion H; subst; clear H; [left|right].
  - destruct (run_plain objs m cs) as [m2 ss2] eqn:E. destruct (run_plain_pointwise objs cs m m2 ss2 Hnd E) as (_ & _ & P).
    split; [apply Forall_map, Forall_forall; reflexivity|]. split; [|apply map_length].
    intros c Hc. apply (P c Hc), (all_validated objs m cs Ev c Hc).
  - split; [|split; [reflexivity|rewrite !map_length; reflexivity]].
    apply Forall_map, Forall_forall. intros v _. destruct v; discriminate.
Qed.
Print Assumptions atomic_all_or_none.

(* the server never ends up with a ref naming an object it does not have *)
Theorem refs_stay_valid : forall atomic objs m cs m' ss,
  NoDup (map c_ref cs) -> valid objs m -> apply_pack atomic objs m cs = (m', ss) -> valid objs m'.
Proof.
  intros atomic objs m cs m' ss Hnd Hv H. unfold apply_pack in H.
  destruct atomic; [rewrite run_atomic_plain in H by exact Hnd|exact (run_plain_valid objs cs m m' ss Hv H)].
  destruct (forallb is_ok _); inversion H; subst; [|exact Hv].
  destruct (run_plain objs m cs) as [m2 ss2] eqn:E. exact (run_plain_valid objs cs m m2 ss2 Hv E).
Qed.
Print Assumptions refs_stay_valid.

(* ---------- the status report on the wire (Model/ReportStatus.v) ---------- *)
From DV Require Import CapsP ReportStatus ReportStatusP.

(* what ReceivePackHandler._report_status writes for an unpack result and a list of ref statuses is read back by the
   client's ReportStatusParser as exactly that list — for ref names without white space and NUL, and messages that are not
   empty, hold no line feed and neither start nor end with white space (every message dulwich's server produces) *)
Theorem status_report_roundtrip : forall unpack refs,
  msg_ok unpack = true -> Forall entry_ok refs ->
  parse_report (report unpack refs) = Some (UNPACK_ ++ [SP] ++ unpack, refs).
Proof.
  intros unpack refs M F. apply report_roundtrip_ends; [apply msg_ok_ends, M|].
  revert F. apply Forall_impl, entry_ok_ends.
Qed.
Print Assumptions status_report_roundtrip.

(* the side condition on messages is needed: an "ng" line whose message is empty makes check() raise ValueError *)
Theorem empty_failure_message_roundtrip_refuted : forall ref,
  clean ref /\ ref <> [] -> parse_status (status_line ref (Some [])) = PCrash.
Proof. exact ng_without_message_crashes. Qed.
Print Assumptions empty_failure_message_roundtrip_refuted.
