(* Props/C03.v — delta codec. *)
From DV Require Import Delta DeltaP.

(* apply(create(base,target), base) = target, for every base < 4 GiB, every
   target and every opcode list that is a valid edit script (difflib's output
   is checked against valid_opcodesb on every run). *)
Theorem apply_create_py : forall base target ops,
  zlen base < 2 ^ 32 -> valid_opcodesb base target ops = true ->
  apply_py base (create_py base target ops) = DOk target.
Proof.
  intros base target ops Hb Hv. unfold valid_opcodesb in Hv. apply andb_prop in Hv. destruct Hv as [Hok Heq].
  apply bytes_eqb_eq in Heq. pose proof (emits_ops base target (zlen target) ops Hb Hok) as E.
  rewrite Heq in E. exact (emits_apply _ _ _ E).
Qed.
Print Assumptions apply_create_py.

(* every byte string offered as a delta: success means the declared length and
   only slices of base / literal slices of the delta ... *)
Theorem apply_py_sound : forall src delta out,
  apply_py src delta = DOk out ->
  declared_dest delta = Some (zlen out) /\ Pieces src delta out.
Proof. intros src delta out H. pose proof (apply_py_spec src delta) as A. rewrite H in A. exact A. Qed.
Print Assumptions apply_py_sound.

(* ... and the only other outcome is the delta error *)
Theorem apply_py_total : forall src delta,
  apply_py src delta = DErr \/ exists out, apply_py src delta = DOk out.
Proof.
  intros src delta. pose proof (apply_py_spec src delta) as A.
  destruct (apply_py src delta) as [out| |]; [right; eauto|left; reflexivity|destruct A].
Qed.
Print Assumptions apply_py_total.

(* the Rust decoder (usize arithmetic, dev-profile overflow = panic) returns
   exactly what the Python decoder returns: hence never panics, and inherits
   soundness and the round trip *)
Theorem apply_rs_eq_py : forall src delta,
  wf_bytes delta -> zlen delta < 2 ^ 40 -> zlen src < 2 ^ 64 ->
  apply_rs src delta = apply_py src delta.
Proof. exact apply_rs_is_apply_py. Qed.
Print Assumptions apply_rs_eq_py.

(* memory: the Rust output buffer never exceeds the declared size nor
   2^24 bytes per delta byte supplied *)
Theorem rs_alloc_bounded : forall ss f ds d outlen,
  wf_bytes d -> 0 <= outlen <= ds ->
  outlen <= alloc_rs f ss ds d outlen <= Z.min ds (outlen + 2 ^ 24 * zlen d).
Proof. intros ss f ds d ol W Ho. rewrite alloc_rs_mat_py by (assumption || lia). apply mat_py_bound; assumption. Qed.
Print Assumptions rs_alloc_bounded.

(* memory: the Python loop never holds more than the declared size, nor more
   than 2^24 bytes per delta byte supplied *)
Theorem py_materialised_bounded : forall ss f ds d outlen,
  wf_bytes d -> 0 <= outlen <= ds ->
  outlen <= mat_py f ss ds d outlen <= Z.min ds (outlen + 2 ^ 24 * zlen d).
Proof. exact mat_py_bound. Qed.
Print Assumptions py_materialised_bounded.

(* ... which a loop that compares the total with the declared size only after
   the last operation does not give: n bytes of delta made it hold n * 65536
   bytes against a declared size of 65536 *)
Theorem late_size_check_is_unbounded_refuted : forall n : nat,
  mat_py_late (S n) 65536 65536 (repeat 128 n) = 65536 * Z.of_nat n.
Proof.
  induction n as [|n IH]; [reflexivity|].
  change (repeat 128 (S n)) with (128 :: repeat 128 n).
  assert (E : forall k r, mat_py_late (S k) 65536 65536 (128 :: r) = 65536 + mat_py_late k 65536 65536 r) by reflexivity.
  rewrite E, IH, Nat2Z.inj_succ. lia.
Qed.
Print Assumptions late_size_check_is_unbounded_refuted.
