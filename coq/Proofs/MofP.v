(* Proofs/MofP.v — what the sender selects is enough for the receiver and lies within what was asked for *)
From DV Require Import GcP Mof.

Section Select.
  Variable kind_of : nat -> option kind.
  Variable parents : nat -> list nat.
  Variable cdeps : nat -> list nat.

  (* Both loops are described by what a call adds to its accumulators, whatever they hold at the call.
     bs is the boundary: commits met that the receiver has. *)
  Lemma collect_spec common : forall fuel queue commits bases missing bs,
    collect parents fuel queue commits bases common = Some (missing, bs) ->
    (forall e, In e commits -> In e missing) /\ (forall e, In e bases -> In e bs) /\
    (forall e, In e queue -> In e missing \/ In e bs) /\
    (forall e, In e missing -> In e commits \/ forall p, In p (parents e) -> In p missing \/ In p bs) /\
    (forall e, In e bs -> In e bases \/ In e common).
  Proof.
    induction fuel as [|f IH]; intros [|e q] commits bases missing bs H; cbn [collect] in H; try discriminate.
    (* the queue is empty, with or without fuel *)
    1, 2: inversion H; subst; repeat split; auto; intros e [].
    destruct (mem e common) eqn:Mc; [|destruct (mem e commits) eqn:Mm]; apply IH in H; destruct H as (A & B & C & D & E).
    - apply mem_In in Mc. repeat split; auto.
      + intros x Hx. apply B. right. exact Hx.
      + intros x [<-|Hx]; [right; apply B; left; reflexivity|apply C; exact Hx].
      + intros x Hx. destruct (E x Hx) as [[<-|X]|X]; auto.
    - apply mem_In in Mm. repeat split; auto.
      intros x [<-|Hx]; [left; apply A; exact Mm|apply C; exact Hx].
    - repeat split; auto.
      + intros x Hx. apply A. right. exact Hx.
      + intros x [<-|Hx]; [left; apply A; left; reflexivity|apply C; apply in_or_app; left; exact Hx].
      + intros x Hx. destruct (D x Hx) as [[<-|X]|X]; [right|left; exact X|right; exact X].
        intros p Hp. apply C. apply in_or_app. right. exact Hp.
  Qed.

  Lemma send_spec : forall fuel todo done sent r,
    send cdeps fuel todo done sent = Some r ->
    (forall x, In x sent -> In x r) /\
    (forall x, In x todo -> In x r \/ In x done) /\
    (forall x, In x r -> In x sent \/ forall d, In d (cdeps x) -> In d r \/ In d done).
  Proof.
    induction fuel as [|f IH]; intros [|x rest] done sent r H; cbn [send] in H; try discriminate.
    (* nothing left to do, with or without fuel *)
    1, 2: inversion H; subst; repeat split; auto; intros x [].
    destruct (mem x done) eqn:M; apply IH in H; destruct H as (A & B & C).
    - apply mem_In in M. repeat split; auto.
      intros y [<-|Hy]; [right; exact M|apply B; exact Hy].
    - assert (Ix : In x r) by (apply A; left; reflexivity).
      (* what a later call finds done is sent, or was done already *)
      assert (Dn : forall d, In d r \/ In d (x :: done) -> In d r \/ In d done) by (intros d [X|[<-|X]]; auto).
      repeat split.
      + intros y Hy. apply A. right. exact Hy.
      + intros y [<-|Hy]; [left; exact Ix|]. apply Dn, B. apply in_or_app. right. exact Hy.
      + intros y Hy. destruct (C y Hy) as [[<-|X]|X]; [right|left; exact X|right; intros d Hd; apply Dn, X, Hd].
        intros d Hd. destruct (mem d done) eqn:Md; [right; apply mem_In; exact Md|].
        apply Dn, B. apply in_or_app. left. apply filter_In. rewrite Md. auto.
  Qed.

  Lemma collect_all (Q : nat -> Prop) common : (forall e, Q e -> forall p, In p (parents e) -> Q p) ->
    forall fuel queue commits bases missing bs,
    collect parents fuel queue commits bases common = Some (missing, bs) ->
    Forall Q queue -> Forall Q commits -> Forall Q missing.
  Proof.
    intros HQ. induction fuel as [|f IH]; intros [|e q] commits bases missing bs H Fq Fc; cbn [collect] in H; try discriminate.
    (* the queue is empty, with or without fuel *)
    1, 2: inversion H; subst; exact Fc.
    inversion Fq as [|? ? Qe Fq']; subst.
    destruct (mem e common); [|destruct (mem e commits)]; apply IH in H; auto.
    apply Forall_app. split; [exact Fq'|]. apply Forall_forall. exact (HQ e Qe).
  Qed.

  Lemma send_all (Q : nat -> Prop) : (forall x, Q x -> forall d, In d (cdeps x) -> Q d) ->
    forall fuel todo done sent r,
    send cdeps fuel todo done sent = Some r -> Forall Q todo -> Forall Q sent -> Forall Q r.
  Proof.
    intros HQ. induction fuel as [|f IH]; intros [|x rest] done sent r H Ft Fs; cbn [send] in H; try discriminate.
    (* nothing left to do, with or without fuel *)
    1, 2: inversion H; subst; exact Fs.
    inversion Ft as [|? ? Qx Ft']; subst. destruct (mem x done); apply IH in H; auto.
    apply Forall_app. split; [|exact Ft']. apply (incl_Forall (incl_filter _ _)). apply Forall_forall. exact (HQ x Qx).
  Qed.

  Lemma split_cons fuel e l : split kind_of fuel (e :: l) =
    let '(c, t, o) := split1 kind_of fuel e in let '(c', t', o') := split kind_of fuel l in (c ++ c', t ++ t', o ++ o').
  Proof. reflexivity. Qed.

  Lemma split_commits fuel l : (forall w, In w l -> kind_of w = Some KCommit) -> split kind_of fuel l = (l, [], []).
  Proof.
    induction l as [|w r IH]; intros H; [reflexivity|].
    rewrite split_cons, IH by (intros x Hx; apply H; right; exact Hx).
    assert (K : kind_of w = Some KCommit) by (apply H; left; reflexivity).
    destruct fuel; cbn [split1]; rewrite K; reflexivity.
  Qed.

  (* whatever holds of a known object e and passes from a tag to its target holds of the three lists e is split into *)
  Lemma split1_all (P : nat -> Prop) : (forall t x, kind_of t = Some (KTag x) -> P t -> P x) ->
    forall fuel e c t o, split1 kind_of fuel e = (c, t, o) -> (kind_of e <> None -> P e) -> Forall P c /\ Forall P t /\ Forall P o.
  Proof.
    intros HP. induction fuel as [|f IH]; intros e c t o H He; cbn [split1] in H; destruct (kind_of e) as [[|y|]|] eqn:K.
    (* eight cases, fuel (none, some) by kind (commit, tag, other, unknown). In all but the sixth, a tag
       with fuel left, the lists hold e alone, or nothing *)
    1-5, 7-8: inversion H; subst; repeat constructor; apply He; discriminate.
    destruct (split1 kind_of f y) as [[c' t'] o'] eqn:E. inversion H; subst.
    assert (Pe : P e) by (apply He; discriminate).
    destruct (IH y _ _ _ E (fun _ => HP e y K Pe)) as (Fc & Ft & Fo).
    repeat split; [exact Fc|constructor; [exact Pe|exact Ft]|exact Fo].
  Qed.

  Lemma split_all (P : nat -> Prop) : (forall t x, kind_of t = Some (KTag x) -> P t -> P x) ->
    forall fuel l c t o, split kind_of fuel l = (c, t, o) ->
    (forall e, In e l -> kind_of e <> None -> P e) -> Forall P c /\ Forall P t /\ Forall P o.
  Proof.
    intros HP fuel. induction l as [|e r IH]; intros c t o H Hl.
    - inversion H; subst. repeat constructor.
    - rewrite split_cons in H. destruct (split1 kind_of fuel e) as [[c1 t1] o1] eqn:E1. destruct (split kind_of fuel r) as [[c2 t2] o2].
      inversion H; subst. destruct (split1_all P HP _ _ _ _ _ E1 (Hl e (or_introl eq_refl))) as (F1 & F2 & F3).
      destruct (IH _ _ _ eq_refl) as (G1 & G2 & G3); [intros e' He'; apply Hl; right; exact He'|].
      repeat split; apply Forall_app; auto.
  Qed.

  Section Complete.
    (* all that an object refers to: what its content names, then its parents *)
    Definition fd (o : nat) : list nat := cdeps o ++ parents o.
    (* The shape of the object graph: a tag's content names its target; only commits have parents, and no
       parent is a tag; only a tag's content names a commit (Hc) or a tag (Hg). *)
    Hypothesis HT : forall t x, kind_of t = Some (KTag x) -> In x (cdeps t).
    Hypothesis Hpar_commit : forall o, parents o <> [] -> kind_of o = Some KCommit.
    Hypothesis Hpar_kind : forall o p x, In p (parents o) -> kind_of p <> Some (KTag x).
    Hypothesis Hc : forall o d, In d (cdeps o) -> kind_of d = Some KCommit -> exists x, kind_of o = Some (KTag x).
    Hypothesis Hg : forall o d x, In d (cdeps o) -> kind_of d = Some (KTag x) -> exists y, kind_of o = Some (KTag y).

    Lemma fd_cdeps o d : In d (cdeps o) -> In d (fd o).
    Proof. intros H. apply in_or_app. left. exact H. Qed.
    Lemma fd_parents o d : In d (parents o) -> In d (fd o).
    Proof. intros H. apply in_or_app. right. exact H. Qed.

    Variable R : nat -> Prop.
    Hypothesis Rclosed : forall o, R o -> forall d, In d (fd o) -> R d.

    Lemma R_reach f roots : (forall o d, In d (f o) -> In d (fd o)) -> (forall r, In r roots -> R r) ->
      forall x, reachable f roots x -> R x.
    Proof. intros Hf Hr x H. induction H as [x Hx|x d _ IH Hd]; [apply Hr; exact Hx|]. eapply Rclosed; [exact IH|apply Hf; exact Hd]. Qed.

    Lemma select_complete fuel haves wants sent :
      (forall w, In w wants -> kind_of w = Some KCommit) ->
      select kind_of parents cdeps fuel haves wants = Some sent ->
      (forall h, In h haves -> kind_of h <> None -> R h) ->
      forall w, In w wants -> forall o, reachable fd [w] o -> R o \/ In o sent.
    Proof.
      intros Hw SEL Hh. unfold select in SEL.
      destruct (split kind_of fuel haves) as [[hc ht] ho] eqn:SH. rewrite (split_commits fuel wants Hw) in SEL.
      destruct (find_reachable parents fuel hc) as [anc|] eqn:FA; [|discriminate].
      destruct (collect parents fuel wants [] [] anc) as [[missing common]|] eqn:CO; [|discriminate].
      destruct (find_reachable cdeps fuel (flat_map cdeps (flat_map (tree_of cdeps) common))) as [trees|] eqn:FT; [|discriminate].
      cbn [filter app] in SEL. rewrite app_nil_r in SEL.
      destruct (collect_spec _ _ _ _ _ _ _ CO) as (_ & _ & C1 & C2 & C3).
      destruct (send_spec _ _ _ _ _ SEL) as (_ & S2 & S3).
      (* the haves after splitting are with the receiver, and so is all the sender takes the receiver to have *)
      destruct (split_all R) with (2 := SH) as (Rhc & Rht & _); [|exact Hh|].
      { intros t x K Rt. apply (Rclosed t Rt), fd_cdeps, HT, K. }
      rewrite Forall_forall in Rhc, Rht.
      assert (Rcommon : forall c, In c common -> R c).
      { intros c Ic. destruct (C3 c Ic) as [[]|X]. apply (find_reachable_exact _ _ _ _ FA) in X. revert X.
        apply (R_reach parents hc fd_parents Rhc). }
      assert (Rhas : forall x, In x (common ++ trees ++ ht) -> R x).
      { intros x Hx. rewrite !in_app_iff in Hx. destruct Hx as [X|[X|X]]; auto.
        apply (find_reachable_exact _ _ _ _ FT) in X. revert X. apply (R_reach cdeps _ fd_cdeps).
        intros t Ht. apply in_flat_map in Ht. destruct Ht as (tr & Htr & Hd). apply in_flat_map in Htr. destruct Htr as (c & Ic & Htc).
        eapply Rclosed; [eapply Rclosed; [apply Rcommon; exact Ic|]|]; apply fd_cdeps; eassumption. }
      assert (Got : forall x, In x missing -> R x \/ In x sent) by (intros x Hx; destruct (S2 x Hx); auto).
      (* no collected commit is a tag; so nothing sent is a tag, and every commit sent was collected *)
      set (notag := fun e => forall x, kind_of e <> Some (KTag x)).
      assert (Nm : Forall notag missing).
      { apply (collect_all notag) with (2 := CO); [intros e _ p Hp x; eapply Hpar_kind; exact Hp| |constructor].
        apply Forall_forall. intros w Iw x. rewrite (Hw w Iw). discriminate. }
      assert (Qs : Forall (fun x => notag x /\ (kind_of x = Some KCommit -> In x missing)) sent).
      { rewrite Forall_forall in Nm. apply send_all with (2 := SEL); [|apply Forall_forall; auto|constructor].
        intros x [Nt _] d Hd. split.
        - intros y Ky. destruct (Hg x d y Hd Ky) as [z Kz]. exact (Nt z Kz).
        - intros Kd. destruct (Hc x d Hd Kd) as [z Kz]. exfalso. exact (Nt z Kz). }
      rewrite Forall_forall in Qs.
      intros w Iw o Ho. induction Ho as [o [<-|[]]|o d _ IH Hd].
      - destruct (C1 w Iw); auto.
      - destruct IH as [Ro|So]; [left; eapply Rclosed; eauto|].
        destruct (S3 o So) as [[]|Sd]. apply in_app_or in Hd. destruct Hd as [Hd|Hd]; [destruct (Sd d Hd); auto|].
        assert (Mo : In o missing) by (apply (Qs o So), Hpar_commit; intros E; rewrite E in Hd; contradiction).
        destruct (C2 o Mo) as [[]|Cp]. destruct (Cp d Hd); auto.
    Qed.

    Lemma select_minimal fuel haves wants sent :
      select kind_of parents cdeps fuel haves wants = Some sent ->
      forall x, In x sent -> exists w, In w wants /\ reachable fd [w] x.
    Proof.
      intros SEL. unfold select in SEL.
      destruct (split kind_of fuel haves) as [[hc ht] ho]. destruct (split kind_of fuel wants) as [[wc wt] wo] eqn:SW.
      destruct (find_reachable parents fuel hc) as [anc|]; [|discriminate].
      destruct (collect parents fuel wc [] [] anc) as [[missing common]|] eqn:CO; [|discriminate].
      destruct (find_reachable cdeps fuel (flat_map cdeps (flat_map (tree_of cdeps) common))) as [trees|]; [|discriminate].
      set (Q := fun x => exists w, In w wants /\ reachable fd [w] x).
      assert (Qstep : forall x, Q x -> forall d, In d (fd x) -> Q d).
      { intros x (w & Iw & Rw) d Hd. exists w. split; [exact Iw|eapply r_step; eauto]. }
      destruct (split_all Q) with (2 := SW) as (Qc & Qt & Qo).
      { intros t x K Qt. apply (Qstep t Qt), fd_cdeps, HT, K. }
      { intros e Ie _. exists e. split; [exact Ie|apply r_root; left; reflexivity]. }
      apply Forall_forall. apply (send_all Q) with (2 := SEL); [intros x Qx d Hd; apply (Qstep x Qx), fd_cdeps, Hd| |constructor].
      apply Forall_app. split; [|apply Forall_app; split; [revert Qt|revert Qo]; apply incl_Forall, incl_filter].
      apply (collect_all Q) with (2 := CO); [intros e Qe p Hp; apply (Qstep e Qe), fd_parents, Hp|exact Qc|constructor].
    Qed.
  End Complete.
End Select.
