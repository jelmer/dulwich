(* Props/C13.v — merge-base and ancestry. *)
From DV Require Import Lca LcaP.

(* _find_lcas (with the final redundancy filter) returns exactly the maximal
   common ancestors of c1 and the commits c2s: for every DAG (parents numbered
   below their children), every query, and every order in which the work list
   is popped — hence for every assignment of commit timestamps, ties and
   backwards clocks included, since timestamps only order the heap *)
Theorem lca_exact : forall parents pick,
  (forall v p, In p (parents v) -> p < v) ->
  forall c1 c2s n fuel l,
  c1 < n -> find_lcas parents pick n fuel c1 c2s = Some l ->
  forall x, In x l <-> MaxCA parents c1 c2s x.
Proof. intros parents pick Hlt c1 c2s n fuel l Hn H. exact (proj2 (find_lcas_spec parents pick Hlt c1 c2s n fuel l Hn H)). Qed.
Print Assumptions lca_exact.

(* can_fast_forward(c1, c2) is the graph-theoretic ancestor test *)
Theorem ff_exact : forall parents pick,
  (forall v p, In p (parents v) -> p < v) ->
  forall n fuel c1 c2 b,
  c1 < n -> can_fast_forward parents pick n fuel c1 c2 = Some b -> (b = true <-> Anc parents c1 c2).
Proof. exact can_fast_forward_exact. Qed.
Print Assumptions ff_exact.

From DV Require Import Walk WalkP TopoP.

(* a walk without excluded commits yields every commit reachable from the
   starting points exactly once, whatever the timestamps (the pop order is an
   arbitrary function of the queue) *)
Theorem walk_yields_reachable_once : forall parents pick include fuel l,
  walk parents pick fuel include = Some l ->
  NoDup l /\ forall c, In c l <-> reach parents include c.
Proof. exact walk_spec. Qed.
Print Assumptions walk_yields_reachable_once.

(* _topo_reorder: the output holds entries only, none twice, and no commit
   comes after one of its parents *)
Theorem topo_never_parent_before_child : forall parents fuel entries l, NoDup entries ->
  topo parents fuel entries = Some l ->
  NoDup l /\ (forall e, In e l -> In e entries) /\
  forall l1 c l2, l = l1 ++ c :: l2 -> forall p, In p l1 -> ~ In p (parents c).
Proof. exact topo_spec. Qed.
Print Assumptions topo_never_parent_before_child.
