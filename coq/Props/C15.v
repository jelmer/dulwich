(* Props/C15.v — Rust extensions and pure-Python fallbacks agree. *)
From DV Require Import Delta DeltaP RustTwins RustTwinsP.

(* tree parsing: same entries or failure in both, for every byte string,
   both id lengths, strict on and off *)
Theorem parse_tree_py_eq_rs : forall fuel sha_len strict text, 0 <= sha_len ->
  py_parse_tree fuel sha_len strict text = rs_parse_tree fuel sha_len strict text.
Proof. intros. apply parse_tree_py_eq_rs_any. Qed.
Print Assumptions parse_tree_py_eq_rs.

(* tree ordering: key_entry's bytes comparison and cmp_with_suffix decide every
   pair of entries alike, whatever bytes the names hold *)
Theorem tree_order_py_eq_rs : forall a b, py_tree_cmp a b = rs_tree_cmp a b.
Proof. exact tree_cmp_py_eq_rs. Qed.
Print Assumptions tree_order_py_eq_rs.

(* the comparator that looks at one byte past the common prefix (what the crate
   had) agrees only on names without NUL and '/', and differs outside them *)
Theorem tree_order_one_byte_lookahead_partial : forall a b, plain (fst a) -> plain (fst b) ->
  py_tree_cmp a b = rs_tree_cmp_one_byte a b.
Proof. exact tree_cmp_one_byte. Qed.
Print Assumptions tree_order_one_byte_lookahead_partial.

Theorem tree_order_one_byte_lookahead_refuted : exists a b, py_tree_cmp a b <> rs_tree_cmp_one_byte a b.
Proof.
  (* "foo" (a directory) against "foo/bar": equal for the one-byte comparator, ordered for key_entry *)
  exists ([102;111;111], 16384), ([102;111;111;47;98;97;114], 33188). vm_compute. discriminate.
Qed.
Print Assumptions tree_order_one_byte_lookahead_refuted.

(* delta application: identical results on every delta (stated in C03 as well) *)
Theorem apply_delta_py_eq_rs : forall src delta,
  wf_bytes delta -> zlen delta < 2 ^ 40 -> zlen src < 2 ^ 64 ->
  apply_rs src delta = apply_py src delta.
Proof. exact apply_rs_is_apply_py. Qed.
Print Assumptions apply_delta_py_eq_rs.

(* index bisection: same answer, and no i64 overflow, for all tables and index ranges below 2^62 *)
Theorem bisect_py_eq_rs : forall fuel name sha s e,
  0 <= s -> e < 4611686018427387904 ->
  py_bisect_top fuel name sha s e = rs_bisect_top fuel name sha s e.
Proof.
  intros fuel name sha s e Hs He. unfold py_bisect_top, rs_bisect_top.
  destruct (negb ((zlen sha =? 20) || (zlen sha =? 32))); [reflexivity|].
  destruct (s >? e); [reflexivity|]. apply bisect_loop_py_eq_rs; lia.
Qed.
Print Assumptions bisect_py_eq_rs.

(* block counting for rename detection: the blocks both twins hash are a
   partition of the blob into pieces of 1..64 bytes (model shared by both twins;
   each twin is compared with it on every run) *)
Theorem count_blocks_is_partition : forall data,
  concat (count_blocks data) = data /\ Forall (fun b => 1 <= zlen b <= 64) (count_blocks data).
Proof. intros data. split; [apply (split_blocks_concat data [] 0)|apply split_blocks_bounded; [reflexivity|lia]]. Qed.
Print Assumptions count_blocks_is_partition.
