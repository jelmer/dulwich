(* Base/Bytes.v — bytes as lists of Z, slices, and the arithmetic set-up (Z scope,
   lia with the hook below) of every model that works on byte strings; the models
   that do not (Lca, Gc, CrashFs, DeltaGraph, CommitGraph, LockFile, ...) do not
   require it.  Rests on the standard library and Base/ListFacts.v. *)
From Coq Require Export ZArith List Bool Lia ZifyBool.
From DV Require Export ListFacts.
Export ListNotations.
Open Scope Z_scope.

(* lia sees through / and mod.  This takes the place of the hook ZifyBool
   installs (elim_bool_cstr, a case split on every boolean subterm): no proof
   here needs that one, and with both in force ConfigP alone costs twice as much
   to check.  The redefinition reaches every file that requires this one; 8.16
   has no way to confine it short of a Section. *)
Ltac Zify.zify_post_hook ::= Z.to_euclidean_division_equations.

Definition byte := Z.
Definition bytes := list Z.

Definition wf_byte (b : Z) : Prop := 0 <= b < 256.
Definition wf_bytes (l : bytes) : Prop := Forall wf_byte l.
Definition wf_byteb (b : Z) : bool := (0 <=? b) && (b <? 256).
Definition wf_bytesb (l : bytes) : bool := forallb wf_byteb l.

Definition zlen {A} (l : list A) : Z := Z.of_nat (length l).

(* Python l[a:a+n] for a, n >= 0 *)
Definition slice {A} (l : list A) (a n : Z) : list A :=
  firstn (Z.to_nat n) (skipn (Z.to_nat a) l).
Definition zfirstn {A} (n : Z) (l : list A) := firstn (Z.to_nat n) l.
Definition zskipn {A} (n : Z) (l : list A) := skipn (Z.to_nat n) l.

(* bit i of a byte/flag word, as arithmetic so lia can see it *)
Definition bit (x i : Z) : bool := (x / 2 ^ i) mod 2 =? 1.

Lemma wf_bytesb_spec l : wf_bytesb l = true <-> wf_bytes l.
Proof.
  unfold wf_bytesb, wf_bytes. rewrite forallb_forall, Forall_forall.
  split; intros H x Hx; specialize (H x Hx); unfold wf_byteb, wf_byte in *; lia.
Qed.

Lemma zlen_nonneg {A} (l : list A) : 0 <= zlen l.
Proof. unfold zlen; lia. Qed.

Lemma zlen_app {A} (l m : list A) : zlen (l ++ m) = zlen l + zlen m.
Proof. unfold zlen; rewrite app_length; lia. Qed.

Lemma zlen_cons {A} (x : A) l : zlen (x :: l) = 1 + zlen l.
Proof. unfold zlen; cbn [length]; lia. Qed.

Lemma zlen_nil {A} : zlen (@nil A) = 0.
Proof. reflexivity. Qed.

Lemma zlen_repeat {A} (x : A) n : zlen (repeat x n) = Z.of_nat n.
Proof. unfold zlen. rewrite repeat_length. reflexivity. Qed.

Lemma zlen_0_nil {A} (l : list A) : zlen l = 0 -> l = [].
Proof. destruct l; [reflexivity|]. rewrite zlen_cons. pose proof (zlen_nonneg l). lia. Qed.

Lemma wf_bytes_app l m : wf_bytes (l ++ m) <-> wf_bytes l /\ wf_bytes m.
Proof. unfold wf_bytes; apply Forall_app. Qed.

Lemma wf_bytes_firstn n l : wf_bytes l -> wf_bytes (firstn n l).
Proof. apply Forall_firstn. Qed.

Lemma wf_bytes_skipn n l : wf_bytes l -> wf_bytes (skipn n l).
Proof. apply Forall_skipn. Qed.

Lemma wf_bytes_slice l a n : wf_bytes l -> wf_bytes (slice l a n).
Proof. intros; unfold slice; apply wf_bytes_firstn, wf_bytes_skipn; assumption. Qed.

Lemma zlen_zfirstn {A} n (l : list A) : 0 <= n <= zlen l -> zlen (zfirstn n l) = n.
Proof. unfold zlen, zfirstn; intros; rewrite firstn_length; lia. Qed.

Lemma zlen_zskipn {A} n (l : list A) : 0 <= n <= zlen l -> zlen (zskipn n l) = zlen l - n.
Proof. unfold zlen, zskipn; intros; rewrite skipn_length; lia. Qed.

Lemma zlen_slice {A} (l : list A) a n :
  0 <= a -> 0 <= n -> a + n <= zlen l -> zlen (slice l a n) = n.
Proof.
  unfold zlen, slice; intros; rewrite firstn_length, skipn_length; lia.
Qed.

(* for any n >= 0, in range or not *)
Lemma zlen_zfirstn_min {A} n (l : list A) : 0 <= n -> zlen (zfirstn n l) = Z.min n (zlen l).
Proof. intros; unfold zlen, zfirstn. rewrite firstn_length. lia. Qed.

Lemma zlen_zskipn_max {A} n (l : list A) : 0 <= n -> zlen (zskipn n l) = Z.max 0 (zlen l - n).
Proof. intros; unfold zlen, zskipn. rewrite skipn_length. lia. Qed.

Lemma zlen_slice_le {A} (l : list A) a n : zlen (slice l a n) <= Z.max n 0.
Proof. unfold zlen, slice. rewrite firstn_length. lia. Qed.

Lemma length_zskipn {A} n (l : list A) : (length (zskipn n l) <= length l)%nat.
Proof. unfold zskipn. rewrite skipn_length. lia. Qed.

Lemma nth_Z_cons {A} (x : A) r d k : 0 < k -> nth (Z.to_nat k) (x :: r) d = nth (Z.to_nat (k - 1)) r d.
Proof. intros H. replace (Z.to_nat k) with (S (Z.to_nat (k - 1))) by lia. reflexivity. Qed.

Lemma slice_split {A} (l : list A) a n m :
  0 <= a -> 0 <= n -> 0 <= m -> slice l a (n + m) = slice l a n ++ slice l (a + n) m.
Proof.
  intros Ha Hn Hm. unfold slice.
  rewrite (Z2Nat.inj_add n m) by lia. rewrite firstn_plus.
  rewrite (Z2Nat.inj_add a n) by lia. rewrite skipn_plus. reflexivity.
Qed.

Lemma slice_zero {A} (l : list A) a : slice l a 0 = [].
Proof. reflexivity. Qed.

Lemma zfirstn_app_le {A} n (b d : list A) : 0 <= n <= zlen b -> zfirstn n (b ++ d) = zfirstn n b.
Proof.
  intros H. unfold zfirstn, zlen in *. rewrite firstn_app.
  replace (Z.to_nat n - length b)%nat with 0%nat by lia. cbn. apply app_nil_r.
Qed.

Lemma zskipn_app_le {A} n (b d : list A) : 0 <= n <= zlen b -> zskipn n (b ++ d) = zskipn n b ++ d.
Proof.
  intros H. unfold zskipn, zlen in *. rewrite skipn_app.
  replace (Z.to_nat n - length b)%nat with 0%nat by lia. reflexivity.
Qed.

Lemma slice_app_le {A} (b d : list A) a n : 0 <= a -> 0 <= n -> a + n <= zlen b -> slice (b ++ d) a n = slice b a n.
Proof.
  intros Ha Hn H. unfold slice. change (skipn (Z.to_nat a)) with (@zskipn A a).
  rewrite zskipn_app_le by lia. change (firstn (Z.to_nat n)) with (@zfirstn A n).
  apply zfirstn_app_le. rewrite zlen_zskipn by lia. lia.
Qed.

Lemma zfirstn_app_exact {A} (l r : list A) n : n = zlen l -> zfirstn n (l ++ r) = l.
Proof.
  intros ->. pose proof (zlen_nonneg l). rewrite zfirstn_app_le by lia.
  unfold zfirstn, zlen. rewrite Nat2Z.id. apply firstn_all.
Qed.

Lemma zskipn_app_exact {A} (l r : list A) n : n = zlen l -> zskipn n (l ++ r) = r.
Proof.
  intros ->. pose proof (zlen_nonneg l). rewrite zskipn_app_le by lia.
  unfold zskipn, zlen. rewrite Nat2Z.id, skipn_all. reflexivity.
Qed.

Lemma zfirstn_app_plus {A} (l r : list A) n : 0 <= n -> zfirstn (zlen l + n) (l ++ r) = l ++ zfirstn n r.
Proof.
  intros Hn. unfold zfirstn, zlen. rewrite Z2Nat.inj_add, Nat2Z.id by lia.
  rewrite firstn_app_2. reflexivity.
Qed.

Lemma zskipn_app_plus {A} (l r : list A) n : 0 <= n -> zskipn (zlen l + n) (l ++ r) = zskipn n r.
Proof.
  intros Hn. unfold zskipn, zlen. rewrite Z2Nat.inj_add, Nat2Z.id by lia.
  rewrite skipn_plus, skipn_app, skipn_all, Nat.sub_diag. reflexivity.
Qed.

Lemma zfirstn_zskipn {A} n (l : list A) : zfirstn n l ++ zskipn n l = l.
Proof. apply firstn_skipn. Qed.

Lemma zskipn_shorter {A} n (l : list A) : 0 < n -> n <= zlen l -> (length (zskipn n l) < length l)%nat.
Proof. intros. unfold zskipn, zlen in *. rewrite skipn_length. lia. Qed.

Lemma split_by_length {A} (out w total : list A) n :
  out ++ w = total -> zlen out = Z.min n (zlen total) ->
  out = zfirstn n total /\ w = zskipn n total.
Proof.
  intros <- Hl. rewrite zlen_app in Hl. pose proof (zlen_nonneg w).
  destruct (Z_le_gt_dec n (zlen out)) as [Hle|Hgt].
  - rewrite zfirstn_app_exact, zskipn_app_exact by lia. auto.
  - rewrite (zlen_0_nil w) by lia. rewrite app_nil_r. unfold zfirstn, zskipn.
    rewrite firstn_all2, skipn_all2 by (unfold zlen in *; lia). auto.
Qed.

Lemma has_byte c l : existsb (fun b => b =? c) l = true <-> In c l.
Proof. apply (existsb_eqb_In (fun c b => b =? c)). intros a b. rewrite Z.eqb_eq. split; intros ->; reflexivity. Qed.

Fixpoint bytes_beq (a b : bytes) : bool :=
  match a, b with
  | [], [] => true
  | x :: a', y :: b' => (x =? y) && bytes_beq a' b'
  | _, _ => false
  end.

Lemma bytes_beq_spec a b : bytes_beq a b = true <-> a = b.
Proof.
  revert b; induction a as [|x a IH]; intros [|y b]; cbn; split; intros H; try discriminate; try reflexivity.
  - apply andb_prop in H. destruct H as [H1 H2]. apply Z.eqb_eq in H1. apply IH in H2. subst. reflexivity.
  - inversion H; subst. rewrite Z.eqb_refl. cbn. apply IH. reflexivity.
Qed.

Lemma bytes_beq_refl a : bytes_beq a a = true.
Proof. apply bytes_beq_spec. reflexivity. Qed.

Lemma bytes_beqP a b : reflect (a = b) (bytes_beq a b).
Proof. apply iff_reflect. symmetry. apply bytes_beq_spec. Qed.

Lemma bytes_beq_sym a b : bytes_beq a b = bytes_beq b a.
Proof.
  destruct (bytes_beqP a b) as [->|N]; [symmetry; apply bytes_beq_refl|].
  destruct (bytes_beqP b a) as [->|_]; [contradiction|reflexivity].
Qed.

Lemma bytes_beq_neq a b : a <> b -> bytes_beq a b = false.
Proof. intros H. destruct (bytes_beqP a b); [contradiction|reflexivity]. Qed.

(* Association lists keyed by byte strings: Python dicts, updated in place.
   Receive.rget/rset/rdel, Refs.rget/rset/rdel and Config.aget/aset/adel are
   kget/kset/kdel (Config.adel: kdel1) at their value types, up to conversion,
   so their lemmas are instances of these. *)
Section Assoc.
Context {V : Type}.

Fixpoint kget (n : bytes) (m : list (bytes * V)) : option V :=
  match m with [] => None | (k, v) :: r => if bytes_beq n k then Some v else kget n r end.

Fixpoint kset (n : bytes) (v : V) (m : list (bytes * V)) : list (bytes * V) :=
  match m with
  | [] => [(n, v)]
  | (k, w) :: r => if bytes_beq n k then (k, v) :: r else (k, w) :: kset n v r
  end.

(* every binding of n *)
Fixpoint kdel (n : bytes) (m : list (bytes * V)) : list (bytes * V) :=
  match m with [] => [] | (k, w) :: r => if bytes_beq n k then kdel n r else (k, w) :: kdel n r end.

(* the first binding of n: enough when every key is bound once *)
Fixpoint kdel1 (n : bytes) (m : list (bytes * V)) : list (bytes * V) :=
  match m with [] => [] | (k, w) :: r => if bytes_beq n k then r else (k, w) :: kdel1 n r end.

Fixpoint konce (m : list (bytes * V)) : Prop :=
  match m with [] => True | (k, _) :: r => kget k r = None /\ konce r end.

(* in each proof the head of the list is (k, w): either it is the binding of n,
   or q can only hit it when q <> n *)
Lemma kget_kset m n v q : kget q (kset n v m) = if bytes_beq q n then Some v else kget q m.
Proof.
  induction m as [|[k w] r IH]; cbn [kset kget]; [reflexivity|].
  destruct (bytes_beqP n k) as [<-|N]; cbn [kget]; [destruct (bytes_beq q n); reflexivity|].
  rewrite IH. destruct (bytes_beqP q k) as [->|_]; [|reflexivity].
  rewrite bytes_beq_sym, (bytes_beq_neq n k N). reflexivity.
Qed.

Lemma kget_kdel m n q : kget q (kdel n m) = if bytes_beq q n then None else kget q m.
Proof.
  induction m as [|[k w] r IH]; cbn [kdel kget]; [destruct (bytes_beq q n); reflexivity|].
  destruct (bytes_beqP n k) as [<-|N]; cbn [kget]; rewrite IH; [destruct (bytes_beq q n); reflexivity|].
  destruct (bytes_beqP q k) as [->|_]; [|reflexivity].
  rewrite bytes_beq_sym, (bytes_beq_neq n k N). reflexivity.
Qed.

Lemma kget_kdel1 m n q : konce m -> kget q (kdel1 n m) = if bytes_beq q n then None else kget q m.
Proof.
  induction m as [|[k w] r IH]; intros Hm; cbn [kdel1 kget]; [destruct (bytes_beq q n); reflexivity|].
  destruct Hm as [Hk Hr]. destruct (bytes_beqP n k) as [<-|N].
  - destruct (bytes_beqP q n) as [E|_]; [rewrite E; exact Hk|reflexivity].
  - cbn [kget]. rewrite IH by exact Hr. destruct (bytes_beqP q k) as [->|_]; [|reflexivity].
    rewrite bytes_beq_sym, (bytes_beq_neq n k N). reflexivity.
Qed.

Lemma konce_kset m n v : konce m -> konce (kset n v m).
Proof.
  induction m as [|[k w] r IH]; intros Hm; cbn [kset konce]; [auto|].
  destruct Hm as [Hk Hr]. destruct (bytes_beqP n k) as [<-|N]; cbn [konce]; [auto|].
  split; [|auto]. rewrite kget_kset, bytes_beq_sym, (bytes_beq_neq n k N). exact Hk.
Qed.

Lemma konce_kdel1 m n : konce m -> konce (kdel1 n m).
Proof.
  induction m as [|[k w] r IH]; intros Hm; cbn [kdel1 konce]; [auto|].
  destruct Hm as [Hk Hr]. destruct (bytes_beqP n k) as [<-|N]; cbn [konce]; [auto|].
  split; [|auto]. rewrite kget_kdel1, Hk by exact Hr. destruct (bytes_beq k n); reflexivity.
Qed.

End Assoc.
