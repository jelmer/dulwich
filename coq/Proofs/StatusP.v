(* Proofs/StatusP.v — under the stat-cache hypothesis the shortcut through the recorded signature (check_entry)
   answers as the full comparison does (differs) *)
From DV Require Import Status.

(* the stat-cache hypothesis ("racy git"): an unchanged stat signature means unchanged content
   (the mode is part of what lstat returns and is compared directly) *)
Definition sig_faithful (i : ientry) (x : wentry) : Prop :=
  w_isdir x = false -> w_sig x = i_sig i -> e_id (w_entry x) = e_id (i_entry i).

Lemma check_entry_exact fm i w :
  (forall x, w = Some x -> sig_faithful i x) ->
  check_entry fm i w = differs fm i w.
Proof.
  intros H. destruct w as [x|]; [|reflexivity]. pose proof (H x eq_refl) as F. unfold check_entry, differs.
  destruct (w_isdir x) eqn:D; [reflexivity|]. cbn [orb].
  destruct (w_sig x =? i_sig i) eqn:E; [|reflexivity]. apply Z.eqb_eq in E. rewrite (F D E), Z.eqb_refl. reflexivity.
Qed.
