(* Proofs/TopoP.v — the topological reordering (_topo_reorder, the second half of Model/Walk.v) never puts a
   parent before one of its children *)
From Coq Require Import Permutation.
From DV Require Import ListFacts Walk.

Lemma remove1_perm x l : NoDup l -> In x l -> Permutation l (x :: remove1 x l).
Proof.
  unfold remove1. induction l as [|y l IH]; intros N I; [contradiction|]. inversion N as [|? ? Ny Nl]; subst.
  cbn [filter]. destruct (Nat.eqb_spec y x) as [->|Ne]; cbn [negb].
  - rewrite (remove_nat_notIn x l Ny). reflexivity.
  - destruct I as [->|I]; [contradiction|]. rewrite perm_swap. apply perm_skip, IH; assumption.
Qed.

Section TopoReorder.
  Variable parents : nat -> list nat.

  Definition occ (p : nat) (l : list nat) : nat := count_occ Nat.eq_dec l p.
  Definition tot (l : list nat) (p : nat) : nat := occ p (flat_map parents l).

  Lemma occ_cons p q l : occ p (q :: l) = (if Nat.eqb p q then 1 else 0) + occ p l.
  Proof. unfold occ. cbn [count_occ]. destruct (Nat.eq_dec q p), (Nat.eqb_spec p q); try reflexivity; congruence. Qed.

  Lemma tot_cons e l p : tot (e :: l) p = occ p (parents e) + tot l p.
  Proof. unfold tot, occ. cbn [flat_map]. apply count_occ_app. Qed.

  Lemma tot_app a b p : tot (a ++ b) p = tot a p + tot b p.
  Proof. unfold tot, occ. rewrite flat_map_app. apply count_occ_app. Qed.

  Lemma tot_perm l l' p : Permutation l l' -> tot l p = tot l' p.
  Proof. intros H. apply Permutation_count_occ, Permutation_flat_map, H. Qed.

  Lemma tot_zero_notin l p : tot l p = 0 -> forall c, In c l -> ~ In p (parents c).
  Proof.
    intros H c Hc X. apply (count_occ_not_In Nat.eq_dec) in H. apply H, in_flat_map. exists c. auto.
  Qed.

  (* the commits not yet yielded *)
  Definition waiting (s : tst) : list nat := todo s ++ pending s.

  (* The invariant of both loops.  [rem] is what the inner loop (over the parents of the commit just
     yielded) has still to release; between iterations of the outer loop it is empty. *)
  Record TInv (entries rem : list nat) (s : tst) : Prop := {
    T_nodup : NoDup (waiting s ++ tout s);
    T_sub : forall e, In e (waiting s ++ tout s) -> In e entries;
    (* the counter of p: how often p is named as a parent by a commit not yet yielded *)
    T_cnt : forall p, cnt s p = tot (waiting s) p + occ p rem;
    T_free : forall c p, In c (waiting s) -> In p (tout s) -> ~ In p (parents c);
    (* the output so far (newest first): a parent is never deeper in the list than its child *)
    T_ord : forall a c b, tout s = a ++ c :: b -> forall p, In p b -> ~ In p (parents c)
  }.

  (* a step that yields nothing and only reorders the waiting commits keeps everything but the counters *)
  Lemma shuffle_inv entries rem rem' s s' : TInv entries rem s ->
    Permutation (waiting s) (waiting s') -> tout s' = tout s ->
    (forall p, cnt s' p = tot (waiting s) p + occ p rem') -> TInv entries rem' s'.
  Proof.
    intros [N Sb _ F O] P E C. constructor; rewrite ?E.
    - rewrite <- P. exact N.
    - intros e. rewrite <- P. apply Sb.
    - intros p. rewrite <- (tot_perm _ _ p P). apply C.
    - intros c p. rewrite <- P. apply F.
    - exact O.
  Qed.

  Lemma release_inv entries q rem s : TInv entries (q :: rem) s -> TInv entries rem (release s q).
  Proof.
    intros I.
    assert (C : forall p, dec (cnt s) q p = tot (waiting s) p + occ p rem).
    { intros p. unfold dec. rewrite (T_cnt _ _ _ I p), occ_cons. destruct (Nat.eqb p q); lia. }
    unfold release. destruct (_ && mem q (pending s)) eqn:B; [|apply (shuffle_inv _ _ _ _ _ I); [reflexivity|reflexivity|exact C]].
    (* q moves from [pending] to the head of [todo] *)
    apply (shuffle_inv _ _ _ _ _ I); [|reflexivity|exact C]. apply andb_prop in B. destruct B as [_ Mq]. apply mem_nat_In in Mq.
    assert (Np : NoDup (pending s)).
    { destruct (proj1 (NoDup_app_iff _ _) (T_nodup _ _ _ I)) as (N & _). apply NoDup_app_iff in N. apply N. }
    unfold waiting. cbn [todo pending]. rewrite (remove1_perm q (pending s) Np Mq) at 1. symmetry. apply Permutation_middle.
  Qed.

  Lemma releases_inv entries : forall ps s, TInv entries ps s -> TInv entries [] (fold_left release ps s).
  Proof. apply fold_left_inv_rest. intros q r s. apply release_inv. Qed.

  Lemma tstep_inv entries s : TInv entries [] s -> TInv entries [] (tstep parents s).
  Proof.
    intros I. unfold tstep. destruct (todo s) as [|e rest] eqn:T; [exact I|].
    assert (W : waiting s = e :: rest ++ pending s) by (unfold waiting; rewrite T; reflexivity).
    destruct (cnt s e =? 0) eqn:Z.
    - (* e is yielded: no commit still waiting names it as a parent *)
      apply releases_inv. destruct I as [N Sb C F O]. rewrite W in *.
      constructor; unfold waiting; cbn [todo pending cnt tout].
      + apply NoDup_middle. exact N.
      + intros x X. apply Sb. rewrite in_app_iff in X. cbn [app In] in *. rewrite in_app_iff. tauto.
      + intros p. rewrite (C p), tot_cons. change (occ p []) with 0. lia.
      + intros c p Hc [<-|Hp]; [|apply F; [right; exact Hc|exact Hp]].
        apply (tot_zero_notin (rest ++ pending s)); [|exact Hc]. apply Nat.eqb_eq in Z. rewrite (C e), tot_cons in Z. lia.
      + intros [|x a] c b E p Hp; cbn [app] in E; inversion E; subst; [|eapply O; eauto].
        apply F; [left; reflexivity|exact Hp].
    - (* e is put aside *)
      apply (shuffle_inv _ _ _ _ _ I); [rewrite W; apply Permutation_middle|reflexivity|apply (T_cnt _ _ _ I)].
  Qed.

  Lemma fold_inc_count : forall l f p, fold_left inc l f p = f p + occ p l.
  Proof.
    induction l as [|x l IH]; intros f p; cbn [fold_left]; [unfold occ; cbn; lia|].
    rewrite IH, occ_cons. unfold inc. destruct (Nat.eqb p x); lia.
  Qed.

  Lemma tinit_inv entries : NoDup entries -> TInv entries [] (tinit parents entries).
  Proof.
    intros N. constructor; unfold waiting; cbn [tinit todo pending cnt tout]; rewrite ?app_nil_r; auto.
    - intros p. rewrite fold_inc_count. unfold tot, occ. cbn. lia.
    - intros [|x a] c b E; discriminate.
  Qed.

  Lemma trun_inv entries : forall fuel s s', TInv entries [] s -> trun parents fuel s = Some s' -> TInv entries [] s'.
  Proof.
    induction fuel as [|f IH]; intros s s' Hs H; cbn [trun] in H; destruct (todo s) eqn:T.
    - (* no fuel, nothing to do *) inversion H; subst. exact Hs.
    - (* no fuel, something to do *) discriminate.
    - (* nothing to do *) inversion H; subst. exact Hs.
    - eapply IH; [|exact H]. apply tstep_inv. exact Hs.
  Qed.

  Lemma topo_spec fuel entries l : NoDup entries -> topo parents fuel entries = Some l ->
    NoDup l /\ (forall e, In e l -> In e entries) /\
    forall l1 c l2, l = l1 ++ c :: l2 -> forall p, In p l1 -> ~ In p (parents c).
  Proof.
    intros N. unfold topo. destruct (trun parents fuel _) as [s|] eqn:R; [|discriminate].
    intros H. inversion H; subst l. destruct (trun_inv _ _ _ _ (tinit_inv _ N) R) as [N' S' _ _ O'].
    apply NoDup_app_iff in N'. destruct N' as (_ & No & _). split; [apply NoDup_rev; exact No|]. split.
    - intros e He. apply S'. apply in_or_app. right. apply in_rev. exact He.
    - intros l1 c l2 E p Hp. apply (O' (rev l2) c (rev l1)); [|apply (proj1 (in_rev _ _)); exact Hp].
      rewrite <- (rev_involutive (tout s)), E, rev_app_distr. cbn [rev]. rewrite <- app_assoc. reflexivity.
  Qed.
End TopoReorder.
