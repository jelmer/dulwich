(* Proofs/PktLineP.v — pkt-line framing read back, by the plain reader and by the one over recv() whatever the
   chunking; the incremental parser through one law for draining a buffer in two pieces (drain_app);
   side-band frames and the buffered writer *)
From DV Require Import Radix PktLine.

Lemma hexval_hexdigit d : 0 <= d < 16 -> hexval (hexdigit d) = Some d.
Proof.
  intros H. unfold hexdigit, hexval. destruct (d <? 10) eqn:E.
  - replace ((48 <=? 48 + d) && (48 + d <=? 57)) with true by lia. f_equal; lia.
  - replace ((48 <=? 87 + d) && (87 + d <=? 57)) with false by lia.
    replace ((97 <=? 87 + d) && (87 + d <=? 102)) with true by lia. f_equal; lia.
Qed.

Lemma parse_len_hex4 n : 0 <= n < 65536 -> parse_len (hex4 n) = Some n.
Proof.
  intros H. unfold parse_len, hex4.
  rewrite !hexval_hexdigit by (apply Z.mod_pos_bound; lia). f_equal. lia.
Qed.

Lemma zlen_hex4 n : zlen (hex4 n) = 4.
Proof. reflexivity. Qed.

Lemma zfirstn_hex4 n r : zfirstn 4 (hex4 n ++ r) = hex4 n.
Proof. reflexivity. Qed.

Lemma zskipn_hex4 n r : zskipn 4 (hex4 n ++ r) = r.
Proof. reflexivity. Qed.

(* MAX_DATA is 65520 - 4: the largest pkt-line git allows, less the four digits of its length, which counts them *)
Lemma pkt_line_ok p f : pkt_line (Some p) = WOk f ->
  zlen p <= MAX_DATA /\ f = hex4 (zlen p + 4) ++ p.
Proof.
  unfold pkt_line. destruct (zlen p >? MAX_DATA) eqn:E; [discriminate|].
  intros H; inversion H; subst. split; [lia|reflexivity].
Qed.

Lemma pkt_line_refused p : pkt_line (Some p) = WValueError <-> zlen p > MAX_DATA.
Proof. unfold pkt_line. destruct (zlen p >? MAX_DATA) eqn:E; split; intros H; try discriminate; try reflexivity; lia. Qed.

Lemma read_pkt_line_frame p f rest :
  pkt_line (Some p) = WOk f -> read_pkt_line (f ++ rest) = (RFrame p, rest).
Proof.
  intros H. apply pkt_line_ok in H. destruct H as [Hl ->]. unfold MAX_DATA in Hl. pose proof (zlen_nonneg p) as Hp0.
  unfold read_pkt_line. rewrite <- app_assoc, zfirstn_hex4, zskipn_hex4, parse_len_hex4 by lia.
  change (match hex4 (zlen p + 4) with [] => (RHangup, p ++ rest) | _ :: _ => ?x end) with x.
  replace ((zlen p + 4 =? 0) || (zlen p + 4 =? 1)) with false by lia.
  replace (zlen p + 4 <? 4) with false by lia.
  destruct (zlen p + 4 >? 4) eqn:E.
  - replace (zlen p + 4 - 4) with (zlen p) by lia.
    rewrite zfirstn_app_exact, zskipn_app_exact, Z.eqb_refl by reflexivity. reflexivity.
  - rewrite (zlen_0_nil p) by lia. reflexivity.
Qed.

Lemma read_pkt_line_flush rest : read_pkt_line ([48; 48; 48; 48] ++ rest) = (RNone, rest).
Proof. reflexivity. Qed.

Lemma pkt_seq_cons p ps s : pkt_seq (p :: ps) = WOk s ->
  exists a b, pkt_line (Some p) = WOk a /\ pkt_seq ps = WOk b /\ s = a ++ b.
Proof.
  cbn [pkt_seq]. destruct (pkt_line (Some p)) as [a|]; [|discriminate].
  destruct (pkt_seq ps) as [b|]; [|discriminate]. intros H. inversion H. eauto.
Qed.

Lemma frames_roundtrip_fuel : forall ps s rest fuel,
  pkt_seq ps = WOk s -> (length ps < fuel)%nat ->
  read_pkt_seq fuel (s ++ rest) = (ps, SEnd, rest).
Proof.
  induction ps as [|p ps IH]; intros s rest [|fuel] H Hf; try (cbn in Hf; lia); cbn [read_pkt_seq].
  - cbn in H. inversion H; subst. rewrite read_pkt_line_flush. reflexivity.
  - apply pkt_seq_cons in H. destruct H as (a & b & Ha & Hb & ->).
    rewrite <- app_assoc, (read_pkt_line_frame _ _ _ Ha), (IH b rest fuel Hb) by (cbn in Hf; lia). reflexivity.
Qed.

Lemma pkt_seq_length : forall ps s, pkt_seq ps = WOk s -> (length ps < length s)%nat.
Proof.
  induction ps as [|p ps IH]; intros s H.
  - cbn in H. inversion H; subst. cbn. lia.
  - apply pkt_seq_cons in H. destruct H as (a & b & Ha & Hb & ->). apply IH in Hb.
    apply pkt_line_ok in Ha. destruct Ha as [_ ->]. rewrite !app_length. cbn [length hex4]. lia.
Qed.

Lemma read_pkt_line_rest s : exists n, snd (read_pkt_line s) = zskipn n (zskipn 4 s).
Proof.
  unfold read_pkt_line. destruct (zfirstn 4 s); [exists 0; reflexivity|].
  destruct (parse_len _) as [size|]; [|exists 0; reflexivity].
  destruct (_ || _); [exists 0; reflexivity|]. destruct (size <? 4); [exists 0; reflexivity|].
  destruct (size >? 4); [exists (size - 4)|exists 0]; destruct (_ =? size); reflexivity.
Qed.

(* all that a reader over recv() has still to deliver: what it has buffered, then what is on the wire *)
Definition stream (st : rstate) : bytes := rbuf st ++ wire st.

Lemma recv_spec k w sc data w' sc' :
  1 <= k -> recv k w sc = (data, w', sc') ->
  data ++ w' = w /\ zlen data <= k /\ (data = [] -> w = []).
Proof.
  unfold recv. intros Hk H. inversion H; subst; clear H.
  set (want := match sc with [] => k | n :: _ => Z.max 1 (Z.min n k) end).
  assert (Hw : 1 <= want <= k) by (unfold want; destruct sc; lia).
  pose proof (zlen_nonneg w) as Hw0.
  split; [apply zfirstn_zskipn|]. split.
  - rewrite zlen_zfirstn by lia. lia.
  - intros E. assert (Hz : zlen (zfirstn (Z.min want (zlen w)) w) = 0) by (rewrite E; reflexivity).
    rewrite zlen_zfirstn in Hz by lia. apply zlen_0_nil. lia.
Qed.

(* Short of EOF every recv gives at least one byte (recv_spec), so size - |acc| rounds are enough: rp_read
   passes S (Z.to_nat size) *)
Lemma rp_loop_spec : forall fuel size acc w sc out w' sc',
  zlen acc < size -> size - zlen acc <= Z.of_nat fuel ->
  rp_loop fuel size acc w sc = (out, w', sc') ->
  out ++ w' = acc ++ w /\ zlen out = Z.min size (zlen (acc ++ w)).
Proof.
  induction fuel as [|f IH]; intros size acc w sc out w' sc' Ha Hf H; [lia|].
  cbn [rp_loop] in H. destruct (recv (size - zlen acc) w sc) as [[data w1] sc1] eqn:ER.
  apply recv_spec in ER; [|lia]. destruct ER as (Hd & Hl & He).
  pose proof (zlen_nonneg acc) as Ha0. pose proof (zlen_nonneg data) as Hd0. pose proof (zlen_nonneg w1) as Hw0.
  subst w. rewrite !zlen_app.
  destruct data as [|x data'].
  - inversion H; subst. specialize (He eq_refl). cbn [app] in *. subst w'.
    split; [reflexivity|]. change (zlen (@nil Z)) with 0. lia.
  - set (data := x :: data') in *.
    assert (1 <= zlen data) by (unfold data; rewrite zlen_cons; pose proof (zlen_nonneg data'); lia).
    destruct ((zlen data =? size) && (zlen acc =? 0)) eqn:E1.
    + inversion H; subst. rewrite (zlen_0_nil acc) in * by lia.
      split; [reflexivity|]. rewrite zlen_nil. lia.
    + destruct (zlen data =? size - zlen acc) eqn:E2.
      * inversion H; subst. split; [rewrite <- app_assoc; reflexivity|]. rewrite zlen_app. lia.
      * apply IH in H; [| rewrite zlen_app; lia | rewrite zlen_app; lia ].
        destruct H as [H1 H2]. split; [rewrite H1, <- app_assoc; reflexivity|].
        rewrite H2. rewrite !zlen_app. lia.
Qed.

Lemma rp_read_spec size st out st' :
  0 < size -> rp_read size st = (out, st') ->
  out = zfirstn size (stream st) /\ stream st' = zskipn size (stream st).
Proof.
  intros Hs H. unfold rp_read in H. unfold stream.
  destruct (zlen (rbuf st) >=? size) eqn:E.
  - inversion H; subst; clear H. cbn [rbuf wire]. rewrite zfirstn_app_le, zskipn_app_le by lia. auto.
  - destruct (rp_loop (S (Z.to_nat size)) size (rbuf st) (wire st) (sched st)) as [[o w] sc] eqn:EL.
    inversion H; subst; clear H. cbn [rbuf wire app].
    pose proof (zlen_nonneg (rbuf st)).
    apply rp_loop_spec in EL; [|lia|rewrite Nat2Z.inj_succ, Z2Nat.id by lia; lia].
    destruct EL as [H1 H2]. exact (split_by_length _ _ _ _ H1 H2).
Qed.

Lemma rp_read_pkt_line_spec st r st' :
  rp_read_pkt_line st = (r, st') -> read_pkt_line (stream st) = (r, stream st').
Proof.
  unfold rp_read_pkt_line, read_pkt_line. intros H.
  destruct (rp_read 4 st) as [sizestr st1] eqn:E4.
  apply rp_read_spec in E4; [|lia]. destruct E4 as [-> E4]. rewrite <- E4.
  destruct (zfirstn 4 (stream st)); [inversion H; subst; reflexivity|].
  destruct (parse_len _) as [size|]; [|inversion H; subst; reflexivity].
  destruct (_ || _); [inversion H; subst; reflexivity|].
  destruct (size <? 4); [inversion H; subst; reflexivity|].
  destruct (size >? 4) eqn:E5.
  - destruct (rp_read (size - 4) st1) as [p st2] eqn:Ep.
    apply rp_read_spec in Ep; [|lia]. destruct Ep as [-> Ep]. rewrite <- Ep.
    destruct (_ =? size); inversion H; subst; reflexivity.
  - destruct (_ =? size); inversion H; subst; reflexivity.
Qed.

(* 65515 is MAX_DATA - 1: the channel byte takes one byte of the payload *)
Lemma write_sideband_spec : forall fuel ch blob,
  zlen blob <= 65515 * Z.of_nat fuel ->
  let fs := write_sideband fuel ch blob in
  concat (map (@tl Z) fs) = blob /\
  Forall (fun f => 1 <= zlen f <= MAX_DATA /\ hd 0 f = ch) fs /\
  sb_demux fs = Some (map (fun f => (ch, tl f)) fs).
Proof.
  induction fuel as [|f IH]; intros ch blob Hl; pose proof (zlen_nonneg blob) as Hb0.
  - rewrite (zlen_0_nil blob) by lia. cbn. auto.
  - cbn [write_sideband]. destruct blob as [|b blob']; [cbn; auto|].
    set (blob := b :: blob') in *.
    specialize (IH ch (zskipn 65515 blob)). rewrite zlen_zskipn_max in IH by lia.
    destruct IH as (I1 & I2 & I3); [lia|].
    cbn zeta. cbn [map concat tl]. split; [|split].
    + rewrite I1. apply zfirstn_zskipn.
    + constructor; [|exact I2]. cbn [hd]. rewrite zlen_cons, zlen_zfirstn_min by lia. unfold MAX_DATA. lia.
    + unfold sb_demux in *. cbn [fold_right]. rewrite I3. reflexivity.
Qed.

Lemma sb_fuel_ok blob : zlen blob <= 65515 * Z.of_nat (sb_fuel blob).
Proof. apply div_fuel_ok; [reflexivity|apply zlen_nonneg]. Qed.

Lemma bw_write_concat bufsize wbuf bl line wbuf' bl' outs :
  bw_write bufsize (wbuf, bl) line = ((wbuf', bl'), outs) -> concat outs ++ wbuf' = wbuf ++ line.
Proof.
  unfold bw_write. destruct (_ >=? 0).
  - set (cut := if _ <? 0 then _ else _). intros H. inversion H; subst; clear H.
    assert (E : concat (match wbuf ++ zfirstn cut line with [] => [] | _ :: _ => [wbuf ++ zfirstn cut line] end)
                = wbuf ++ zfirstn cut line).
    { destruct (wbuf ++ zfirstn cut line); [reflexivity|]. cbn. rewrite app_nil_r. reflexivity. }
    rewrite E, <- app_assoc, zfirstn_zskipn. reflexivity.
  - intros H. inversion H; subst. reflexivity.
Qed.

(* the pkt-lines of the payloads ps, one after the other: pkt_seq without the closing flush *)
Fixpoint lines_of (ps : list bytes) : option bytes :=
  match ps with
  | [] => Some []
  | p :: r => match pkt_line (Some p), lines_of r with
              | WOk a, Some b => Some (a ++ b)
              | _, _ => None
              end
  end.

Lemma bw_run_concat bufsize : forall ps wbuf bl wbuf' bl' outs,
  bw_run bufsize (wbuf, bl) ps = Some ((wbuf', bl'), outs) ->
  exists ls, lines_of ps = Some ls /\ concat outs ++ wbuf' = wbuf ++ ls.
Proof.
  induction ps as [|p ps IH]; intros wbuf bl wbuf' bl' outs H.
  - cbn in H. inversion H; subst. exists []. cbn. rewrite app_nil_r. auto.
  - cbn [bw_run lines_of] in *. destruct (pkt_line (Some p)) as [line|]; [|discriminate].
    destruct (bw_write bufsize (wbuf, bl) line) as [[w1 b1] o1] eqn:E1.
    destruct (bw_run bufsize (w1, b1) ps) as [[[w2 b2] o2]|] eqn:E2; [|discriminate].
    inversion H; subst; clear H.
    apply bw_write_concat in E1. apply IH in E2. destruct E2 as (ls & -> & E2).
    exists (line ++ ls). split; [reflexivity|].
    rewrite concat_app, <- app_assoc, E2, app_assoc, E1, <- app_assoc. reflexivity.
Qed.

(* one round of pp_drain, the recursive call left open *)
Definition drain_body (rec : bytes -> list pev * bytes * bool) (buf : bytes) : list pev * bytes * bool :=
  if zlen buf <? 4 then ([], buf, false)
  else match parse_len (zfirstn 4 buf) with
       | None => ([], buf, true)
       | Some size =>
         if size =? 0 then let '(ev, b, e) := rec (zskipn 4 buf) in (PFlush :: ev, b, e)
         else if size <? 4 then ([], buf, true)
         else if size <=? zlen buf then
           let '(ev, b, e) := rec (zskipn size buf) in (PFrame (slice buf 4 (size - 4)) :: ev, b, e)
         else ([], buf, false)
       end.

Lemma drain_body_ext rec1 rec2 buf :
  (forall b, (length b < length buf)%nat -> rec1 b = rec2 b) -> drain_body rec1 buf = drain_body rec2 buf.
Proof.
  intros H. unfold drain_body. destruct (zlen buf <? 4) eqn:E4; [reflexivity|].
  destruct (parse_len (zfirstn 4 buf)) as [size|]; [|reflexivity].
  destruct (size =? 0) eqn:E0; [rewrite H by (apply zskipn_shorter; lia); reflexivity|].
  destruct (size <? 4) eqn:Es; [reflexivity|]. destruct (size <=? zlen buf) eqn:El; [|reflexivity].
  rewrite H by (apply zskipn_shorter; lia). reflexivity.
Qed.

Lemma pp_drain_fuel : forall f1 f2 buf, (length buf < f1)%nat -> (length buf < f2)%nat ->
  pp_drain f1 buf = pp_drain f2 buf.
Proof.
  induction f1 as [|f1 IH]; intros [|f2] buf H1 H2; try lia.
  apply (drain_body_ext (pp_drain f1) (pp_drain f2)). intros b Hb. apply IH; lia.
Qed.

(* pp_drain with the fuel pp_parse gives it: all the complete packets at the head of buf, what is left of buf,
   and whether a bad length stopped it.  D buf = ([], buf, false): buf starts with neither a complete packet nor
   a bad length *)
Definition D (buf : bytes) := pp_drain (S (length buf)) buf.

Lemma D_unfold buf : D buf = drain_body D buf.
Proof. apply (drain_body_ext (pp_drain (length buf)) D). intros b Hb. apply pp_drain_fuel; lia. Qed.

(* Draining b ++ d is draining b and then, unless that failed, what b left over followed by d.
   Everything about fragmentation follows from this law. *)
Definition resume (d : bytes) (r : list pev * bytes * bool) : list pev * bytes * bool :=
  let '(ev1, t1, e1) := r in
  if e1 then (ev1, t1 ++ d, true) else let '(ev2, t2, e2) := D (t1 ++ d) in (ev1 ++ ev2, t2, e2).

Lemma resume_cons d p r : resume d (let '(ev, t, e) := r in (p :: ev, t, e)) = let '(ev, t, e) := resume d r in (p :: ev, t, e).
Proof. destruct r as [[ev t] [|]]; [reflexivity|]. cbn [resume]. destruct (D (t ++ d)) as [[? ?] ?]. reflexivity. Qed.

Lemma drain_app d : forall b, D (b ++ d) = resume d (D b).
Proof.
  intros b. remember (length b) as n eqn:En. revert b En. induction n as [n IH] using lt_wf_ind. intros b ->.
  assert (stay : D b = ([], b, false) -> D (b ++ d) = resume d (D b)).
  { intros ->. cbn [resume]. destruct (D (b ++ d)) as [[? ?] ?]. reflexivity. }
  assert (go : forall k, 0 < k <= zlen b -> D (zskipn k (b ++ d)) = resume d (D (zskipn k b))).
  { intros k Hk. rewrite zskipn_app_le by lia. eapply IH; [|reflexivity]. apply zskipn_shorter; lia. }
  pose proof (zlen_nonneg d) as Hd0. pose proof (D_unfold b) as U. unfold drain_body in U.
  destruct (zlen b <? 4) eqn:E4; [exact (stay U)|].
  pose proof (D_unfold (b ++ d)) as Ud. unfold drain_body in Ud. rewrite zlen_app, zfirstn_app_le in Ud by lia.
  replace (zlen b + zlen d <? 4) with false in Ud by lia.
  destruct (parse_len (zfirstn 4 b)) as [size|]; [|rewrite Ud, U; reflexivity].
  destruct (size =? 0) eqn:E0; [rewrite Ud, U, go, resume_cons by lia; reflexivity|].
  destruct (size <? 4) eqn:Es; [rewrite Ud, U; reflexivity|].
  destruct (size <=? zlen b) eqn:El; [|exact (stay U)].
  replace (size <=? zlen b + zlen d) with true in Ud by lia.
  rewrite Ud, U, go, slice_app_le, resume_cons by lia. reflexivity.
Qed.

(* what a successful drain leaves over holds no complete packet *)
Lemma drain_tail_drained b ev t : D b = (ev, t, false) -> D t = ([], t, false).
Proof.
  intros H. pose proof (drain_app [] b) as A. rewrite app_nil_r, H in A. cbn [resume] in A. rewrite app_nil_r in A.
  destruct (D t) as [[ev2 t2] e2]. inversion A as [[E1 E2 E3]].
  rewrite <- (app_nil_r ev) in E1 at 1. apply app_inv_head in E1. subst. reflexivity.
Qed.

Lemma pp_feed_spec : forall frags buf,
  D buf = ([], buf, false) ->
  let '(ev, t, e) := pp_feed buf frags in
  let '(ev', t', e') := D (buf ++ concat frags) in
  ev = ev' /\ e = e' /\ (e = false -> t = t').
Proof.
  induction frags as [|d r IH]; intros buf Hb.
  - cbn [pp_feed concat]. rewrite app_nil_r, Hb. auto.
  - cbn [pp_feed concat]. rewrite app_assoc, drain_app.
    change (pp_parse buf d) with (let '(ev, t, e) := D (buf ++ d) in if e then (ev, buf ++ d, true) else (ev, t, false)).
    destruct (D (buf ++ d)) as [[ev1 t1] [|]] eqn:E1; cbn [resume]; [repeat split; discriminate|].
    specialize (IH t1 (drain_tail_drained _ _ _ E1)).
    destruct (pp_feed t1 r) as [[ev2 b2] e2]. destruct (D (t1 ++ concat r)) as [[ev3 t3] e3].
    destruct IH as (-> & -> & Ht). auto.
Qed.

Example ex_roundtrip :
  exists s, pkt_seq [[97]; []; [98; 99]] = WOk s /\
            read_pkt_seq (seq_fuel (s ++ [1;2])) (s ++ [1;2]) = ([[97]; []; [98; 99]], SEnd, [1;2]).
Proof. eexists. split; [reflexivity|]. vm_compute. reflexivity. Qed.

Example ex_schedule :
  let st := {| rbuf := []; wire := [48;48;48;53;97;48;48;48;48]; sched := [1;2;1;3] |} in
  fst (rp_read_pkt_line st) = RFrame [97].
Proof. vm_compute. reflexivity. Qed.

Example ex_parser : pp_feed [] [[48;48]; [48;53;97;48]; [48;48;48]] = ([PFrame [97]; PFlush], [], false).
Proof. vm_compute. reflexivity. Qed.
