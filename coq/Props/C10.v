(* Props/C10.v — maintenance never loses reachable objects. *)
From DV Require Import Gc GcP.

(* find_reachable_objects: whatever order references are met in, the marked set
   is exactly the set of objects reachable from the ref values *)
Theorem reachable_set_is_exact : forall deps roots fuel R,
  find_reachable deps fuel roots = Some R -> forall o, In o R <-> reachable deps roots o.
Proof. exact find_reachable_exact. Qed.
Print Assumptions reachable_set_is_exact.

(* prune / garbage_collect remove a subset of what is stored, unmarked and old
   enough: every stored reachable object survives, and whatever disappears was
   unreachable and older than the grace period *)
Theorem gc_keeps_everything_reachable : forall deps roots fuel R stored old_enough to_prune,
  find_reachable deps fuel roots = Some R ->
  (forall o, In o to_prune -> In o (prunable stored R old_enough)) ->
  (forall o, In o stored -> reachable deps roots o -> In o (after_gc stored to_prune)) /\
  (forall o, In o stored -> ~ In o (after_gc stored to_prune) -> ~ reachable deps roots o /\ old_enough o = true).
Proof.
  intros deps roots fuel R stored old_enough to_prune H Sub. pose proof (find_reachable_exact _ _ _ _ H) as E.
  assert (Sub' : forall o, In o to_prune -> ~ reachable deps roots o /\ old_enough o = true).
  { intros o Ho. apply Sub, In_prunable in Ho. rewrite <- E. tauto. }
  split; intros o So; rewrite In_after_gc.
  - intros Ro. split; [exact So|]. intros M. apply Sub' in M. tauto.
  - intros N. apply Sub'. destruct (in_dec Nat.eq_dec o to_prune); tauto.
Qed.
Print Assumptions gc_keeps_everything_reachable.

Example reach_instance :
  let deps := fun o => match o with 5 => [4; 2] | 4 => [3] | 2 => [1] | _ => [] end in
  find_reachable deps 10 [5; 2] = Some [3; 1; 4; 2; 5].
Proof. vm_compute. reflexivity. Qed.

(* ---------- a lookup racing a maintenance process (Model/PackLookup.v) ---------- *)
From DV Require Import PackLookup PackLookupP.

(* PackBasedObjectStore.get_raw for an object that exists throughout (as a loose file or in
   a pack present), interleaved step by step -- every probe of a cached pack, every reading
   of the pack directory, the look at the loose file -- with a maintenance process that adds
   packs and then deletes packs and loose files without ever deleting the last copy: whatever
   the reader had cached or opened before (stale entries included), whatever the order of the
   steps, the lookup does not answer "missing" *)
Theorem lookup_never_misses_during_a_repack : forall content o d c io do evs,
  exists_o content o d = true ->
  let '(_, r', _) := run content o true d (start c io do) evs in ctl r' <> Missing.
Proof.
  intros content o d c io do evs X. unfold run.
  pose proof (run_inv content o evs d (start c io do) false (start_inv content o d c io do X)) as H.
  destruct (fold_left _ evs _) as [[d' r'] b']. destruct H as [_ H]. intros E. rewrite E in H. exact H.
Qed.
Print Assumptions lookup_never_misses_during_a_repack.

(* "adds, then deletes" cannot be dropped: when a second maintenance run starts adding
   before the lookup is over, three attempts are not enough *)
Theorem lookup_during_two_repacks_refuted :
  exists content o d c evs,
    exists_o content o d = true /\
    let '(_, r', bad) := run content o false d (start c [] []) evs in ctl r' = Missing /\ bad = false.
Proof. exists ex_content, 0, ex_disk, [9], ex_two_repacks. vm_compute. auto. Qed.
Print Assumptions lookup_during_two_repacks_refuted.
