(* Props/C12.v — tree diff, flattening and lookup are mutually consistent. *)
From DV Require Import RustTwinsP TreeDiff TreeDiffP.

(* one directory level (_merge_entries): every name of either directory is paired
   exactly once, in increasing order, with the entries the two directories hold *)
Theorem merge_pairs_each_name_once : forall l1 l2, sortedb l1 = true -> sortedb l2 = true ->
  Forall (fun p => fst p = find (pair_name p) l1 /\ snd p = find (pair_name p) l2 /\ (fst p <> None \/ snd p <> None)) (merge l1 l2) /\
  sorted_pairs (merge l1 l2) /\
  (forall n, (find n l1 <> None \/ find n l2 <> None) -> In n (map pair_name (merge l1 l2))).
Proof. intros l1 l2 H1 H2. apply merge_merged; apply sortedb_sorted; assumption. Qed.
Print Assumptions merge_pairs_each_name_once.

(* tree_changes between two trees of one store (any depth within the fuel, any
   well-formed contents): a path is mentioned iff the file found there differs,
   and the change carries the old and the new file *)
Theorem diff_sound_and_complete : forall st f t1 t2,
  wfb f st (root t1) = true -> wfb f st (root t2) = true ->
  forall q o n, In (q, o, n) (tree_delta f st (root t1, root t2)) <->
                (o = look st (root t1) q /\ n = look st (root t2) q /\ o <> n).
Proof. intros st f t1 t2 W1 W2. apply (tree_delta_wfb st f (root t1, root t2) W1 W2 eq_refl). Qed.
Print Assumptions diff_sound_and_complete.

Theorem diff_paths_unique : forall st f t1 t2,
  wfb f st (root t1) = true -> wfb f st (root t2) = true ->
  NoDup (map (fun d => fst (fst d)) (tree_delta f st (root t1, root t2))).
Proof. intros st f t1 t2 W1 W2. apply (tree_delta_wfb st f (root t1, root t2) W1 W2 eq_refl). Qed.
Print Assumptions diff_paths_unique.

(* applying the change list to the first tree's flat listing gives exactly the second's *)
Theorem diff_applies : forall st f t1 t2,
  wfb f st (root t1) = true -> wfb f st (root t2) = true ->
  forall q, patched f st (root t1, root t2) q = look st (root t2) q.
Proof. intros st f t1 t2 W1 W2. apply spec_applies, (tree_delta_wfb st f (root t1, root t2) W1 W2 eq_refl). Qed.
Print Assumptions diff_applies.

(* iter_tree_contents yields exactly the (path, file) pairs that path lookup finds *)
Theorem flatten_is_lookup : forall st f e, wfb f st (Some e) = true ->
  forall q lf, In (q, lf) (flatten f st e) <-> look st (Some e) q = Some lf.
Proof. intros st f e W. apply flatten_spec. apply wfb_wft. exact W. Qed.
Print Assumptions flatten_is_lookup.

(* the order in which entries are serialised (key_entry) is git's base_name_compare
   (common prefix, then one byte with "/" standing in for the end of a directory
   name) on names without NUL and "/", which is every name git itself allows *)
Theorem canonical_order_is_gits : forall a b, plain (fst a) -> plain (fst b) -> py_tree_cmp a b = rs_tree_cmp_one_byte a b.
Proof. exact tree_cmp_one_byte. Qed.
Print Assumptions canonical_order_is_gits.

(* the hypotheses are satisfiable by a tree with a file/directory ordering conflict *)
Example wf_nonvacuous :
  let f := {| t_name := [97; 46; 98]; t_mode := 33188; t_id := [1] |} in
  let d := {| t_name := [97]; t_mode := 16384; t_id := [2] |} in
  let g := {| t_name := [98]; t_mode := 33188; t_id := [3] |} in
  let st := st_of [([9], [d; f]); ([2], [g]); ([8], [f])] in
  wfb 3 st (root [9]) = true /\ wfb 3 st (root [8]) = true /\
  length (tree_delta 3 st (root [9], root [8])) = 1%nat.
Proof. vm_compute. auto. Qed.

(* ---------- commit_tree (Model/TreeBuild.v) ---------- *)
From DV Require Import TreeBuild TreeBuildP.

(* for every listing in which no path is also a directory of another one, of any
   depth and width, and every collision-free way of naming trees: looking a path
   up in the tree commit_tree builds finds exactly what the listing holds for it *)
Theorem build_then_lookup_is_the_listing : forall (H : list tent -> bytes), (forall a b, H a = H b -> a = b) ->
  forall L, validb L = true ->
  let r := commit_tree H (depth L) L in
  forall q, q <> [] -> look (store_of H (snd r)) (root (fst r)) q = lookupL q L.
Proof. intros H Hi L V r q _. exact (build_lookup H q _ L _ (built_top H Hi L V) []). Qed.
Print Assumptions build_then_lookup_is_the_listing.

(* and flattening it (iter_tree_contents) gives the listing back: build and flatten are inverse *)
Theorem build_then_flatten_is_the_listing : forall (H : list tent -> bytes), (forall a b, H a = H b -> a = b) ->
  forall L, validb L = true ->
  let r := commit_tree H (depth L) L in
  forall q lf, In (q, lf) (flatten (depth L) (store_of H (snd r)) {| t_name := []; t_mode := 16384; t_id := fst r |}) <-> In (q, lf) L.
Proof. intros H Hi L V. exact (build_flatten H _ L _ (built_top H Hi L V) []). Qed.
Print Assumptions build_then_flatten_is_the_listing.

Example a_listing_in_the_domain :
  validb [([[97]], (33188, [1])); ([[98]; [99]], (33261, [2])); ([[98]; [100]; [101]], (40960, [3])); ([[98; 46]], (57344, [4]))] = true.
Proof. vm_compute. reflexivity. Qed.
