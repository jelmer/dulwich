(* Proofs/WalkP.v — the history walk yields every reachable commit exactly once *)
From DV Require Import ListFacts Walk.

Lemma mem_In x l : mem x l = true <-> In x l.
Proof. apply mem_nat_In. Qed.

Lemma mem_notIn x l : mem x l = false <-> ~ In x l.
Proof. apply mem_nat_notIn. Qed.

(* the commits met so far: queued or done *)
Definition met (s : wst) : list nat := pq s ++ done s.

Lemma push_spec s c :
  done (push s c) = done s /\ out (push s c) = out s /\
  (forall x, In x (met (push s c)) <-> c = x \/ In x (met s)) /\ (NoDup (met s) -> NoDup (met (push s c))).
Proof.
  (* the test of push is membership in [met] *)
  unfold push, mem. rewrite <- existsb_app. fold (met s). destruct (existsb _ (met s)) eqn:M.
  - apply mem_In in M. repeat split; auto. intros [<-|H]; assumption.
  - apply mem_notIn in M. unfold met in *. cbn [pq done out app In]. repeat split; auto. intros N. constructor; assumption.
Qed.

Section HistoryWalk.
  Variable parents : nat -> list nat.
  Variable pick : list nat -> nat.
  Variable include : list nat.

  (* The invariant of both loops.  [rem] is what the inner loop (over the starting points, or over the parents of
     the commit just popped) has still to push; between iterations of the outer loop it is empty. *)
  Record WInv (rem : list nat) (s : wst) : Prop := {
    W_out : out s = done s;
    W_nodup : NoDup (met s);
    W_include : forall c, In c include -> In c (rem ++ met s);
    W_reach : forall c, In c (rem ++ met s) -> reach parents include c;
    W_closed : forall c, In c (done s) -> forall p, In p (parents c) -> In p (rem ++ met s)
  }.

  Lemma push_inv c rem s : WInv (c :: rem) s -> WInv rem (push s c).
  Proof.
    intros [O N I R C]. destruct (push_spec s c) as (D' & O' & M' & N').
    assert (E : forall x, In x (rem ++ met (push s c)) <-> In x ((c :: rem) ++ met s)).
    { intros x. cbn [app In]. rewrite !in_app_iff, M', <- !or_assoc, (or_comm (c = x)). reflexivity. }
    constructor.
    - congruence.
    - auto.
    - intros x Hx. apply E, I, Hx.
    - intros x Hx. apply R, E, Hx.
    - rewrite D'. intros x Hx p Hp. apply E. eapply C; eauto.
  Qed.

  Lemma pushes_inv : forall l s, WInv l s -> WInv [] (fold_left push l s).
  Proof. apply fold_left_inv_rest. intros c r s. apply push_inv. Qed.

  Lemma winit_inv : WInv [] (winit include).
  Proof.
    apply pushes_inv. constructor; unfold met; cbn [pq done out]; rewrite ?app_nil_r; auto.
    - constructor.
    - intros c Hc. apply w_root. exact Hc.
    - intros c [].
  Qed.

  Lemma wstep_inv s : WInv [] s -> WInv [] (wstep parents pick s).
  Proof.
    intros Hs. unfold wstep, remove_nth. destruct (nth_error (pq s) _) as [c|] eqn:E; [|exact Hs].
    destruct Hs as [O N I R C]. destruct (nth_error_split_at _ _ _ E) as (l1 & l2 & E1 & E2).
    (* c moves from the queue to [done], and its parents are what is to be pushed *)
    rewrite E2. apply pushes_inv. unfold met in *. cbn [app] in *. rewrite E1 in N, I, R, C.
    assert (M : forall x, In x ((l1 ++ l2) ++ c :: done s) <-> In x ((l1 ++ c :: l2) ++ done s)).
    { intros x. rewrite !in_app_iff. cbn [In]. tauto. }
    assert (Rc : reach parents include c) by (apply R, in_or_app; left; apply in_elt).
    constructor; unfold met; cbn [pq done out].
    - congruence.
    - rewrite <- app_assoc in N. cbn [app] in N. apply NoDup_middle in N. apply NoDup_middle. rewrite <- app_assoc. exact N.
    - intros x Hx. apply in_or_app. right. apply M, I, Hx.
    - intros x Hx. apply in_app_or in Hx. destruct Hx as [Hx|Hx]; [eapply w_step; eauto|apply R, M, Hx].
    - intros x [<-|Hx] p Hp; apply in_or_app; [left; exact Hp|right; apply M; eapply C; eauto].
  Qed.

  Lemma wrun_inv : forall fuel s s', WInv [] s -> wrun parents pick fuel s = Some s' -> WInv [] s' /\ pq s' = [].
  Proof.
    induction fuel as [|f IH]; intros s s' Hs H; cbn [wrun] in H; destruct (pq s) as [|x r] eqn:P.
    - (* no fuel, nothing queued *) inversion H; subst. auto.
    - (* no fuel, something queued *) discriminate.
    - (* nothing queued *) inversion H; subst. auto.
    - apply (IH _ _ (wstep_inv s Hs) H).
  Qed.

  Lemma walk_spec fuel l : walk parents pick fuel include = Some l ->
    NoDup l /\ forall c, In c l <-> reach parents include c.
  Proof.
    unfold walk. destruct (wrun parents pick fuel _) as [s|] eqn:R; [|discriminate].
    intros H. inversion H; subst l. destruct (wrun_inv _ _ _ winit_inv R) as ([O N Inc Rc C] & P).
    unfold met in *. rewrite P in *. cbn [app] in *. rewrite O. split; [apply NoDup_rev; exact N|].
    intros c. rewrite <- in_rev. split; [apply Rc|]. induction 1 as [c Hc|c p _ IH Hp]; [apply Inc; exact Hc|eapply C; eauto].
  Qed.
End HistoryWalk.
