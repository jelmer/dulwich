(* Props/C20.v — configuration value / subsection codecs. *)
From DV Require Import Config ConfigP.

(* what write_to_file emits for a value (after the '='), read by dulwich's
   _parse_string, gives the value back — for every byte string: blanks at either
   end, quotes, backslashes, both comment characters, LF, CR, tabs, VT/FF *)
Theorem value_roundtrip : forall v, parse_string (value_part v) = Some v.
Proof.
  intros v. unfold parse_string, value_part. rewrite strip_value_part by apply format_kept. apply ps_format.
Qed.
Print Assumptions value_roundtrip.

(* ... and read by git's own parse_value (transcribed from config.c 2.39,
   CRLF folding included) gives the same value *)
Theorem git_reads_dulwich : forall v, git_parse_value (value_part v) = Some v.
Proof. intros v. unfold git_parse_value. rewrite crlf_value_part. apply gpv_value_part. Qed.
Print Assumptions git_reads_dulwich.

(* subsection names: every name the writer accepts is read back unchanged *)
Theorem subsection_roundtrip : forall n e, escape_subsection n = Some e -> unescape_subsection e = n.
Proof.
  intros n e. unfold escape_subsection. destruct (_ || _); [discriminate|]. intros H; inversion H.
  apply unescape_escape_sub.
Qed.
Print Assumptions subsection_roundtrip.

(* the case-insensitive multi-valued dictionary behind every section: for every
   sequence of add / set / delete the lookup cache agrees with the ordered list
   of pairs (what items() and the writer emit) *)
From DV Require Import ConfigDictP.
Theorem multidict_coherent : forall ops k,
  md_getitem (md_run ops) k = last_val (lower k) (md_real (md_run ops)).
Proof. intros ops k. apply (md_run_inv ops). Qed.
Print Assumptions multidict_coherent.

(* deleting a key removes all of its values and nothing else, in any state *)
Theorem multidict_delete : forall s k q,
  md_get_all (fst (md_step s (MDel k))) q =
  if snd (md_step s (MDel k)) then md_get_all s q
  else if bytes_beq (lower q) (lower k) then [] else md_get_all s q.
Proof.
  intros s k q. unfold md_get_all. cbn [md_step]. destruct (aget (lower k) (md_keyed s)); cbn [fst snd md_real]; [|reflexivity].
  apply all_vals_filter.
Qed.
Print Assumptions multidict_delete.
