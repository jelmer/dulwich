(* Proofs/CommitGraphP.v — the parents written to a commit-graph file read back unchanged *)
From DV Require Import CommitGraph.
Local Open Scope Z_scope.

(* all that the proofs need of the two constants: a position (below NONE) does not carry the flag *)
Lemma NONE_lt_FLAG : NONE < FLAG.
Proof. reflexivity. Qed.

Lemma enc_rows_length : forall cs off, length (fst (enc cs off)) = length cs.
Proof.
  induction cs as [|ps r IH]; intros off; cbn [enc]; [reflexivity|].
  destruct (encode_commit ps off) as [[p1 p2] e]. specialize (IH (off + Z.of_nat (length e))).
  destruct (enc r (off + Z.of_nat (length e))) as [rows es]. cbn [fst length] in *. congruence.
Qed.

Lemma take_mark_last n : forall l tail, l <> [] -> (forall x, In x l -> 0 <= x < n) -> n <= NONE ->
  take_edges (mark_last l ++ tail) n = l.
Proof.
  pose proof NONE_lt_FLAG as NF. induction l as [|x l IH]; intros tail NE B N; [contradiction|].
  assert (Bx : 0 <= x < n) by (apply B; left; reflexivity).
  destruct l as [|y l].
  - cbn [mark_last app take_edges].
    replace (FLAG <=? x + FLAG) with true by lia. replace (x + FLAG - FLAG) with x by lia.
    replace (x <? n) with true by lia. reflexivity.
  - change (mark_last (x :: y :: l)) with (x :: mark_last (y :: l)). cbn [app take_edges].
    replace (FLAG <=? x) with false by lia. replace (x <? n) with true by lia. f_equal.
    apply IH; [discriminate|intros z Hz; apply B; right; exact Hz|exact N].
Qed.

Lemma decode_one ps off n tail pre : (forall x, In x (positions ps) -> 0 <= x < n) -> n <= NONE ->
  off = Z.of_nat (length pre) ->
  let '(p1, p2, e) := encode_commit ps off in
  decode_commit (p1, p2) (pre ++ e ++ tail) n = Some (positions ps).
Proof.
  intros B N LP. pose proof NONE_lt_FLAG as NF. unfold positions in *.
  assert (S : forall p, In p ps -> (slot p <? NONE) = true /\ (slot p <? n) = true).
  { intros p Hp. apply (in_map slot), B in Hp. lia. }
  destruct ps as [|a [|b [|c r]]]; cbn [encode_commit decode_commit map].
  - reflexivity.
  - destruct (S a (or_introl eq_refl)) as [-> ->]. reflexivity.
  - destruct (S a (or_introl eq_refl)) as [-> ->]. destruct (S b (or_intror (or_introl eq_refl))) as [-> ->]. reflexivity.
  - destruct (S a (or_introl eq_refl)) as [-> ->].
    replace (FLAG + off <? NONE) with false by lia. replace (FLAG <=? FLAG + off) with true by lia.
    cbn [andb negb app]. replace (FLAG + off - FLAG) with off by lia.
    rewrite LP, Nat2Z.id, skipn_app, skipn_all, Nat.sub_diag. cbn [skipn app]. do 2 f_equal.
    apply (take_mark_last n (map slot (b :: c :: r))); [discriminate| |exact N].
    intros x Hx. apply B. right. exact Hx.
Qed.

(* generalised for the induction: the commits written from offset [off] on, [pre] the edge list before them *)
Theorem enc_decode : forall cs off pre n, (forall ps, In ps cs -> forall x, In x (positions ps) -> 0 <= x < n) -> n <= NONE ->
  off = Z.of_nat (length pre) ->
  map (fun row => decode_commit row (pre ++ snd (enc cs off)) n) (fst (enc cs off)) = map (fun ps => Some (positions ps)) cs.
Proof.
  induction cs as [|ps r IH]; intros off pre n B N LP; cbn [enc]; [reflexivity|].
  pose proof (decode_one ps off n) as D.
  destruct (encode_commit ps off) as [[p1 p2] e] eqn:EC.
  specialize (IH (off + Z.of_nat (length e)) (pre ++ e) n).
  destruct (enc r (off + Z.of_nat (length e))) as [rows es] eqn:ER. cbn [fst snd map] in *.
  f_equal.
  - apply D; auto. apply B. left. reflexivity.
  - rewrite <- app_assoc in IH. apply IH; [intros ps' H'; apply B; right; exact H'|exact N|]. rewrite app_length. lia.
Qed.

Lemma closed_positions cs : closed cs ->
  forall ps, In ps cs -> forall x, In x (positions ps) -> 0 <= x < Z.of_nat (length cs).
Proof. intros [_ B] ps Hps x Hx. apply in_map_iff in Hx. destruct Hx as (p & <- & Hp). destruct (B ps Hps p Hp) as (y & -> & Hy). exact Hy. Qed.
