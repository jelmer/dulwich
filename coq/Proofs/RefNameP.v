(* Proofs/RefNameP.v — dulwich's check_ref_format and git's check_refname_format
   accept the same names: a simulation between the two automata. *)
From DV Require Import RefName.

(* Both automata condemn a name at the same bytes; what condemns it at byte b
   depends on the previous byte (was it '.', was it '@'), on whether a component
   is just beginning, and on the progress of ".lock". *)
Definition condemns (ld la cs : bool) (lk b : Z) : bool :=
  ld && (b =? DOT) || d_bad b || la && (b =? LBRACE) || (b =? BSL)
  || (if b =? SLASH then cs || (lk =? 5) else cs && (b =? DOT)).

(* dulwich remembers each reason in a flag of its own and tests them at the end *)
Definition d_condemned (d : dstate) : bool :=
  d_dotdot d || d_badc d || d_atbrace d || d_bs d || d_badcomp d.

Lemma d_condemned_step d b :
  d_condemned (d_step d b) =
  d_condemned d || condemns (d_last_dot d) (d_last_at d) (d_cstart d) (d_lock d) b.
Proof.
  unfold d_condemned, condemns, d_step; cbn.
  destruct (d_dotdot d), (d_badc d), (d_atbrace d), (d_bs d), (d_badcomp d); cbn;
    rewrite ?orb_true_r; reflexivity.
Qed.

(* git's disposition table in dulwich's terms.  Both sides only compare b with
   a dozen constants: each comparison is settled in turn (on a constant both
   sides compute). *)
Local Ltac settle b k := destruct (Z.eqb_spec b k) as [->|_]; [repeat split; reflexivity|].

Lemma g_disp_class b : b <> 0 ->
  (g_disp b =? 1) = (b =? SLASH) /\ (g_disp b =? 2) = (b =? DOT) /\ (g_disp b =? 3) = (b =? LBRACE) /\
  (g_disp b =? 4) || (g_disp b =? 5) = d_bad b || (b =? BSL).
Proof.
  intros Hb. unfold g_disp, d_bad, SLASH, DOT, LBRACE, BSL.
  destruct (Z.eqb_spec b 0) as [|_]; [contradiction|].
  settle b 47. settle b 46. settle b 123. settle b 127. settle b 32. settle b 58. settle b 63.
  settle b 91. settle b 92. settle b 94. settle b 126. settle b 42.
  destruct (b <? 32); repeat split; reflexivity.
Qed.

(* git rejects on the spot, except that it looks at a component's first byte
   only when the component ends: until then g_fdot stands for the rejection *)
Lemma g_condemned_step g b : b <> 0 -> (g_empty g = true -> g_fdot g = false) ->
  g_rej (g_step g b) || g_fdot (g_step g b) =
  g_rej g || g_fdot g || condemns (g_last g =? 1) (g_last g =? 2) (g_empty g) (g_lock g) b.
Proof.
  intros Hb F. destruct (g_disp_class b Hb) as (C1 & C2 & C3 & C45).
  unfold condemns, g_step, g_comp_bad. cbv zeta. rewrite C1, C2, C3.
  destruct (b =? SLASH) eqn:Esl; cbn [g_rej g_fdot].
  - apply Z.eqb_eq in Esl. subst b. cbn. rewrite !andb_false_r.
    destruct (g_rej g), (g_fdot g), (g_empty g), (g_lock g =? 5); reflexivity.
  - rewrite <- (orb_assoc _ (g_disp b =? 4)), C45.
    rewrite (andb_comm (b =? DOT)), (andb_comm (b =? LBRACE)).
    generalize ((g_last g =? 1) && (b =? DOT)) ((g_last g =? 2) && (b =? LBRACE)) (d_bad b) (b =? BSL).
    intros x1 x2 x3 x4. destruct (g_rej g); [reflexivity|].
    destruct (g_empty g); [rewrite F by reflexivity|]; destruct x1, x2, x3, x4, (b =? DOT), (g_fdot g); reflexivity.
Qed.

(* What the two states have in common, line by line: the scans both keep (length up to 2, "the first byte is
   '@'", progress through ".lock"); "a component is just beginning"; "the last byte was '.'", "was '@'", for
   which git has the one code g_last; "a '/' was seen" is git's count of completed components being positive
   (the count is never negative); dulwich's "the last byte is neither '/' nor '.'" is git's "the component is
   not empty and its last byte is no '.'"; g_fdot is clear when a component begins (what g_condemned_step asks);
   and the name stands condemned on both sides or on neither. *)
Definition sim (d : dstate) (g : gstate) : Prop :=
  d_len d = g_len g /\ d_first_at d = g_first_at g /\ d_lock d = g_lock g /\
  d_cstart d = g_empty g /\
  d_last_dot d = (g_last g =? 1) /\ d_last_at d = (g_last g =? 2) /\
  d_slash d = (1 <=? g_count g) /\ 0 <= g_count g /\
  (d_last d =? 2) = negb (g_empty g) && negb (g_last g =? 1) /\
  (g_empty g = true -> g_fdot g = false) /\
  g_rej g || g_fdot g = d_condemned d.

Lemma sim_init : sim d_init g_init.
Proof. unfold sim; cbn; intuition. Qed.

Lemma sim_step d g b : b <> 0 -> sim d g -> sim (d_step d b) (g_step g b).
Proof.
  intros Hb (L & FA & K & E & LD & LA & S & C & L2 & F & R).
  unfold sim. rewrite d_condemned_step, g_condemned_step, R, LD, LA, E, K by assumption.
  destruct (g_disp_class b Hb) as (C1 & _). unfold d_step, g_step. cbv zeta. rewrite C1.
  destruct (Z.eqb_spec b SLASH) as [->|Nsl].
  - cbn. rewrite L, FA, S, orb_true_r. repeat split; try reflexivity; lia.
  - cbn. rewrite L, FA, K, S, !orb_false_r. repeat split; try reflexivity; try assumption.
    + (* the last byte was '.' *) destruct (b =? DOT), (b =? AT); reflexivity.
    + (* the last byte was '@' *) unfold DOT, AT. destruct (Z.eqb_spec b 46) as [->|_]; [reflexivity|]. destruct (b =? 64); reflexivity.
    + (* the last byte is neither '/' nor '.' *) destruct (b =? DOT), (b =? AT); reflexivity.
    + (* no component is beginning *) discriminate.
Qed.

Lemma sim_accept d g : sim d g -> d_accept d = g_accept g.
Proof.
  unfold sim, d_accept, g_accept, g_comp_bad, d_condemned.
  intros (-> & -> & -> & -> & _ & _ & -> & _ & -> & _ & R).
  apply (f_equal negb) in R. rewrite !negb_orb in R.
  rewrite eq_iff_eq_true in *. rewrite !andb_true_iff, !negb_true_iff, !orb_false_iff in *. tauto.
Qed.

(* every byte but NUL, which ends git's C string and is one more bad byte for dulwich *)
Lemma sim_fold s : Forall (fun b => b <> 0) s ->
  forall d g, sim d g -> sim (fold_left d_step s d) (fold_left g_step s g).
Proof. induction 1 as [|b s Hb _ IH]; intros d g H; [exact H|]. apply IH, sim_step; assumption. Qed.

Lemma check_ref_format_eq_git s :
  Forall (fun b => 1 <= b <= 255) s -> check_ref_format s = git_check_refname_format s.
Proof.
  intros Hs. apply sim_accept, sim_fold; [|exact sim_init].
  eapply Forall_impl; [|exact Hs]. cbn. lia.
Qed.

(* The reachable product states, enumerated: a breadth-first closure of the product automaton over the bytes
   1..255, evaluated once: 1843 states.  The theorem above does not rest on it.  tbl_sound: the key of every
   state listed in reach is in the table reach_tbl.  keys_of_reach_tbl is the list of the table's keys,
   evaluated, and keys_of_reach_tbl_ok says no more than that. *)

Definition pstate : Type := dstate * gstate.
Definition p_init : pstate := (d_init, g_init).
Definition p_step (p : pstate) (b : Z) : pstate := (d_step (fst p) b, g_step (snd p) b).

Definition b2z (b : bool) : Z := if b then 1 else 0.

Definition key (p : pstate) : list Z :=
  let d := fst p in let g := snd p in
  [d_len d; b2z (d_first_at d); b2z (d_slash d); b2z (d_last_dot d); b2z (d_dotdot d); b2z (d_badc d);
   d_last d; b2z (d_last_at d); b2z (d_atbrace d); b2z (d_bs d); b2z (d_cstart d); d_lock d; b2z (d_badcomp d);
   g_len g; b2z (g_first_at g); b2z (g_rej g); g_count g; b2z (g_empty g); b2z (g_fdot g); g_last g; g_lock g].

Fixpoint leqb (a b : list Z) : bool :=
  match a, b with
  | [], [] => true
  | x :: a', y :: b' => (x =? y) && leqb a' b'
  | _, _ => false
  end.

(* hash table from a numeric code of the key to the keys with that code; the
   code need not be injective: a lookup compares full keys *)
From Coq Require Import FMapPositive.
Module PM := PositiveMap.

Definition code (k : list Z) : positive := Z.to_pos (1 + fold_left (fun acc x => acc * 8 + x) k 0).

Definition tbl := PM.t (list (list Z)).
Definition tmem (k : list Z) (t : tbl) : bool :=
  match PM.find (code k) t with Some bucket => existsb (leqb k) bucket | None => false end.
Definition tadd (k : list Z) (t : tbl) : tbl :=
  PM.add (code k) (k :: match PM.find (code k) t with Some b => b | None => [] end) t.

Definition bytes255 : list Z := map Z.of_nat (seq 1 255).
Definition succs (p : pstate) : list pstate := map (p_step p) bytes255.

Fixpoint add_new (cands : list pstate) (seen : list pstate) (t : tbl) (new : list pstate)
  : list pstate * tbl * list pstate :=
  match cands with
  | [] => (seen, t, new)
  | c :: r => let k := key c in
              if tmem k t then add_new r seen t new
              else add_new r (c :: seen) (tadd k t) (c :: new)
  end.

Fixpoint bfs (fuel : nat) (seen : list pstate) (t : tbl) (frontier : list pstate) : list pstate :=
  match fuel with
  | O => seen
  | S f =>
    let '(seen', t', new) := add_new (flat_map succs frontier) seen t [] in
    match new with [] => seen' | _ => bfs f seen' t' new end
  end.

Definition reach : list pstate :=
  Eval vm_compute in bfs 64 [p_init] (tadd (key p_init) (PM.empty _)) [p_init].
Definition reach_tbl : tbl := Eval vm_compute in fold_left (fun t p => tadd (key p) t) reach (PM.empty _).

Definition all_keys (t : tbl) : list (list Z) := flat_map snd (PM.elements t).
(* reach_tbl under a second name *)
Definition reach_sorted_tbl : tbl := reach_tbl.

Lemma tbl_sound :
  forallb (fun k => tmem k reach_tbl) (map key reach) = true.
Proof. vm_compute. reflexivity. Qed.

Definition keys_of_reach_tbl : list (list Z) := Eval vm_compute in all_keys reach_tbl.
Lemma keys_of_reach_tbl_ok : keys_of_reach_tbl = all_keys reach_tbl.
Proof. vm_compute. reflexivity. Qed.

(* non-vacuity: both accept / both reject on concrete names *)
Example ex_names :
  map check_ref_format [[97;47;98]; [64]; [97;47;98;46;108;111;99;107]; [97;47;64]] = [true; false; false; true] /\
  map git_check_refname_format [[97;47;98]; [64]; [97;47;98;46;108;111;99;107]; [97;47;64]] = [true; false; false; true].
Proof. vm_compute. split; reflexivity. Qed.
