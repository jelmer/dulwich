(* Proofs/DeltaP.v — the loops of Model/Delta.v decode the head of the delta and
   test it against the sizes in the same way; next_act names that step, run_py,
   mat_py and run_rs get their equations over it, and the loops are compared
   through these. *)
From DV Require Import Radix Delta.

Lemma pow128 k : 0 <= k -> 2 ^ (7 * k) = 128 ^ k.
Proof. intros; rewrite Z.pow_mul_r by lia; reflexivity. Qed.

Lemma hdr_py_enc_f : forall fuel n r shift acc,
  0 <= n < 2 ^ Z.of_nat (S fuel) -> 0 <= shift ->
  hdr_py (enc_size_f fuel n ++ r) shift acc = Some (acc + n * 2 ^ shift, r).
Proof.
  assert (Last : forall n r shift acc, 0 <= n < 128 ->
            hdr_py ([n mod 128] ++ r) shift acc = Some (acc + n * 2 ^ shift, r)).
  { intros n r shift acc Hn. cbn [app hdr_py]. rewrite Z.mod_mod, Z.mod_small by lia.
    replace (n <? 128) with true by lia. reflexivity. }
  induction fuel as [|f IH]; intros n r shift acc Hn Hs; cbn [enc_size_f].
  - apply Last. change (2 ^ Z.of_nat 1) with 2 in Hn. lia.
  - destruct (n / 128 =? 0) eqn:E; [apply Last; lia|].
    cbn [app hdr_py].
    replace ((n mod 128 + 128) mod 128) with (n mod 128) by lia.
    replace (n mod 128 + 128 <? 128) with false by lia.
    rewrite pow2_S in Hn.
    rewrite IH by lia. rewrite Z.pow_add_r by lia.
    f_equal. f_equal. rewrite (Z.div_mod n 128) at 3 by lia. ring.
Qed.

Lemma hdr_py_enc_size n r : 0 <= n -> hdr_py (enc_size n ++ r) 0 0 = Some (n, r).
Proof.
  intros Hn. unfold enc_size. rewrite hdr_py_enc_f; [|split; [lia|apply log2_fuel; lia]|lia].
  f_equal. f_equal. change (2 ^ 0) with 1. lia.
Qed.

Lemma nz_range x : 0 <= nz x <= 1.
Proof. unfold nz. destruct (x =? 0); lia. Qed.

(* the encoder writes an argument byte exactly when it sets the bit that makes
   the decoder read one *)
Lemma rd_optb o r : rd (nz o =? 1) (optb o ++ r) = Some (o, r).
Proof.
  unfold nz, optb. destruct (o =? 0) eqn:E; cbn [Z.eqb app rd]; [|reflexivity].
  f_equal. f_equal. lia.
Qed.

Lemma copy_cmd_bits b0 b1 b2 b3 b4 b5 :
  0 <= b0 <= 1 -> 0 <= b1 <= 1 -> 0 <= b2 <= 1 -> 0 <= b3 <= 1 -> 0 <= b4 <= 1 -> 0 <= b5 <= 1 ->
  let c := 128 + b0 + 2 * b1 + 4 * b2 + 8 * b3 + 16 * b4 + 32 * b5 in
  bit c 0 = (b0 =? 1) /\ bit c 1 = (b1 =? 1) /\ bit c 2 = (b2 =? 1) /\ bit c 3 = (b3 =? 1) /\
  bit c 4 = (b4 =? 1) /\ bit c 5 = (b5 =? 1) /\ bit c 6 = false.
Proof. intros. unfold bit. repeat split; lia. Qed.

Lemma parse_copy_enc_copy start len r :
  0 <= start < 2 ^ 32 -> 0 <= len < 2 ^ 16 ->
  exists cmd tl, enc_copy start len = cmd :: tl /\ 128 <= cmd < 256 /\
                 parse_copy cmd (tl ++ r) = Some (start, len, r).
Proof.
  intros Hs Hl. unfold enc_copy. cbv zeta. do 2 eexists. split; [reflexivity|].
  set (o0 := start mod 256). set (o1 := (start / 256) mod 256). set (o2 := (start / 65536) mod 256).
  set (o3 := (start / 16777216) mod 256). set (l0 := len mod 256). set (l1 := (len / 256) mod 256).
  pose proof (nz_range o0). pose proof (nz_range o1). pose proof (nz_range o2).
  pose proof (nz_range o3). pose proof (nz_range l0). pose proof (nz_range l1).
  split; [lia|]. unfold parse_copy.
  destruct (copy_cmd_bits (nz o0) (nz o1) (nz o2) (nz o3) (nz l0) (nz l1))
    as (-> & -> & -> & -> & -> & -> & ->); try assumption.
  rewrite <- !app_assoc. do 6 (rewrite rd_optb; cbn [obind]). cbn [rd obind].
  replace (o0 + o1 * 256 + o2 * 65536 + o3 * 16777216) with start by (subst o0 o1 o2 o3; lia).
  replace (l0 + l1 * 256 + 0 * 65536) with len by (subst l0 l1; lia). reflexivity.
Qed.

Definition suffix (r d : bytes) : Prop := exists k, r = skipn k d.

Lemma suffix_refl d : suffix d d.
Proof. exists 0%nat; reflexivity. Qed.

Lemma suffix_skipn n r d : suffix r d -> suffix (skipn n r) d.
Proof. intros [k ->]. exists (k + n)%nat. symmetry; apply skipn_plus. Qed.

Lemma suffix_tail x r d : suffix (x :: r) d -> suffix r d.
Proof. apply (suffix_skipn 1). Qed.

Lemma suffix_trans a b c : suffix a b -> suffix b c -> suffix a c.
Proof. intros [k ->]. apply suffix_skipn. Qed.

Lemma suffix_length r d : suffix r d -> (length r <= length d)%nat.
Proof. intros [k ->]. rewrite skipn_length. lia. Qed.

Lemma suffix_wf r d : suffix r d -> wf_bytes d -> wf_bytes r.
Proof. intros [k ->]. apply wf_bytes_skipn. Qed.

Lemma rd_spec flag d x r D : rd flag d = Some (x, r) -> suffix d D ->
  suffix r D /\ (wf_bytes D -> 0 <= x < 256).
Proof.
  unfold rd. destruct flag; [destruct d as [|y d']|]; intros H S; inversion H; subst.
  - split; [eapply suffix_tail; eassumption|]. intros W. apply (suffix_wf _ _ S) in W. inversion W; assumption.
  - split; [assumption|lia].
Qed.

Lemma parse_copy_spec cmd d o s r D : parse_copy cmd d = Some (o, s, r) -> suffix d D ->
  suffix r D /\ (wf_bytes D -> 0 <= o /\ 0 < (if s =? 0 then 65536 else s) <= 2 ^ 24).
Proof.
  unfold parse_copy, obind. intros H S.
  (* seven reads, each leaving a suffix and yielding a byte *)
  do 7 match type of H with match rd ?f ?d with _ => _ end = _ =>
    destruct (rd f d) as [[? ?]|] eqn:E; [|discriminate];
    apply (rd_spec _ _ _ _ D E) in S; clear E; destruct S as [S ?]
  end.
  inversion H; subst. split; [exact S|]. destruct (_ =? 0) eqn:E; lia.
Qed.

(* what the loop does with the head of the delta d when it has produced ol
   bytes: the tests are those of run_py, in its order.  A copy and an insert
   differ only in where the chunk comes from *)
Inductive act :=
| AEnd                                  (* leave the loop and compare the total with the declared size *)
| AErr
| AStep (c : bytes) (n : Z) (r : bytes). (* append the chunk c, count n bytes, go on with r *)

Definition next_act (src : bytes) (ss ds ol : Z) (d : bytes) : act :=
  match d with
  | [] => AEnd
  | cmd :: r =>
    if 128 <=? cmd then
      match parse_copy cmd r with
      | None => AErr
      | Some (off, sz0, r') =>
        let sz := if sz0 =? 0 then 65536 else sz0 in
        if (off + sz >? ss) || (sz >? ds) then match r' with [] => AEnd | _ => AErr end
        else if sz >? ds - ol then AErr
        else AStep (slice src off sz) sz r'
      end
    else if cmd =? 0 then AErr
    else if zlen r <? cmd then AErr
    else if cmd >? ds - ol then AErr
    else AStep (zfirstn cmd r) cmd (zskipn cmd r)
  end.

(* what a decoder may put out: a concatenation of pieces, each copied from the source or from the delta
   itself (the data of an insert), and nothing else *)
Definition is_slice (c l : bytes) : Prop := exists a n, c = slice l a n.
Definition piece_ok (src delta c : bytes) : Prop := is_slice c src \/ is_slice c delta.
Definition Pieces (src delta out : bytes) : Prop :=
  exists chunks, out = concat chunks /\ Forall (piece_ok src delta) chunks.

(* a step takes its chunk from the source or from d, counts at most 2^24 bytes, within the room left, and
   leaves less of d; n is the length of the chunk unless the declared source size is beyond the real one *)
Lemma next_act_spec src ss ds ol d :
  match next_act src ss ds ol d with
  | AStep c n r =>
      n <= ds - ol /\ suffix r d /\ (length r < length d)%nat /\ piece_ok src d c /\
      (wf_bytes d -> 0 < n <= 2 ^ 24 /\ wf_bytes r /\ (ss <= zlen src -> zlen c = n))
  | _ => True
  end.
Proof.
  unfold next_act. destruct d as [|cmd r]; [exact I|].
  pose proof (suffix_tail _ _ _ (suffix_refl (cmd :: r))) as T. destruct (128 <=? cmd).
  - (* copy *) destruct (parse_copy cmd r) as [[[off sz0] r']|] eqn:E; [|exact I]. cbv zeta.
    destruct (parse_copy_spec _ _ _ _ _ r E (suffix_refl r)) as [S B].
    destruct (_ || _) eqn:E1; [destruct r'; exact I|]. destruct (_ >? ds - ol) eqn:E2; [exact I|].
    split; [lia|]. split; [exact (suffix_trans _ _ _ S T)|].
    split; [apply suffix_length in S; cbn [length]; lia|]. split; [left; eexists _, _; reflexivity|].
    intros W. inversion W as [|? ? _ Wr]; subst. destruct (B Wr) as [? ?].
    split; [assumption|]. split; [exact (suffix_wf _ _ S Wr)|]. intros Hss. apply zlen_slice; lia.
  - (* insert: zfirstn cmd r is slice (cmd :: r) 1 cmd *)
    destruct (cmd =? 0) eqn:E0; [exact I|]. destruct (zlen r <? cmd) eqn:E1; [exact I|].
    destruct (cmd >? ds - ol) eqn:E2; [exact I|].
    split; [lia|]. split; [exact (suffix_skipn _ _ _ T)|].
    split; [pose proof (length_zskipn cmd r); cbn [length]; lia|]. split; [right; exists 1, cmd; reflexivity|].
    intros W. inversion W as [|? ? Hc Wr]; subst. unfold wf_byte in Hc.
    split; [lia|]. split; [apply wf_bytes_skipn; exact Wr|]. intros _. apply zlen_zfirstn; lia.
Qed.

Lemma run_py_S f src ss ds d chunks ol :
  run_py (S f) src ss ds d chunks ol =
  match next_act src ss ds ol d with
  | AEnd => finish ds chunks
  | AErr => DErr
  | AStep c n r => run_py f src ss ds r (c :: chunks) (ol + n)
  end.
Proof.
  unfold next_act. cbn [run_py]. destruct d as [|cmd r]; [reflexivity|]. destruct (128 <=? cmd).
  - destruct (parse_copy cmd r) as [[[off sz0] r']|]; [|reflexivity]. cbv zeta.
    destruct (_ || _); [destruct r'; reflexivity|]. destruct (_ >? ds - ol); reflexivity.
  - destruct (cmd =? 0); [reflexivity|]. destruct (zlen r <? cmd); [reflexivity|].
    destruct (cmd >? ds - ol); reflexivity.
Qed.

Lemma run_py_fuel_mono : forall f1 f2 src ss ds d chunks ol,
  (length d < f1)%nat -> (f1 <= f2)%nat ->
  run_py f1 src ss ds d chunks ol = run_py f2 src ss ds d chunks ol.
Proof.
  induction f1 as [|f1 IH]; intros f2 src ss ds d chunks ol H1 H2; [lia|].
  destruct f2 as [|f2]; [lia|]. rewrite !run_py_S.
  pose proof (next_act_spec src ss ds ol d) as A. destruct (next_act src ss ds ol d) as [| |c n r]; try reflexivity.
  apply IH; lia.
Qed.

(* run_py on the fuel apply_py gives it; by run_py_fuel_mono any fuel above length d does the same *)
Definition runP src ss ds d chunks ol := run_py (S (length d)) src ss ds d chunks ol.

Lemma runP_S src ss ds d chunks ol :
  runP src ss ds d chunks ol =
  match next_act src ss ds ol d with
  | AEnd => finish ds chunks
  | AErr => DErr
  | AStep c n r => runP src ss ds r (c :: chunks) (ol + n)
  end.
Proof.
  unfold runP. rewrite run_py_S.
  pose proof (next_act_spec src ss ds ol d) as A. destruct (next_act src ss ds ol d) as [| |c n r]; try reflexivity.
  symmetry. apply run_py_fuel_mono; lia.
Qed.

Definition outc (chunks : list bytes) : bytes := concat (rev chunks).

Lemma outc_cons c chunks : outc (c :: chunks) = outc chunks ++ c.
Proof. unfold outc; cbn [rev]. rewrite concat_app. cbn [concat]. rewrite app_nil_r. reflexivity. Qed.

(* the fragment e of a delta makes the decoder append data and go on with what
   follows e, wherever the declared size leaves room for data *)
Definition emits (src : bytes) (ds : Z) (e data : bytes) : Prop :=
  forall r chunks ol, 0 <= ol -> zlen data <= ds - ol ->
  exists chunks', runP src (zlen src) ds (e ++ r) chunks ol = runP src (zlen src) ds r chunks' (ol + zlen data)
                  /\ outc chunks' = outc chunks ++ data.

Lemma emits_nil src ds : emits src ds [] [].
Proof. intros r chunks ol _ _. exists chunks. rewrite zlen_nil, Z.add_0_r, app_nil_r. auto. Qed.

Lemma emits_app src ds e1 d1 e2 d2 :
  emits src ds e1 d1 -> emits src ds e2 d2 -> emits src ds (e1 ++ e2) (d1 ++ d2).
Proof.
  intros H1 H2 r chunks ol Hol Hroom. rewrite zlen_app in *.
  pose proof (zlen_nonneg d1). pose proof (zlen_nonneg d2).
  destruct (H1 (e2 ++ r) chunks ol) as (c1 & R1 & O1); [lia..|].
  destruct (H2 r c1 (ol + zlen d1)) as (c2 & R2 & O2); [lia..|].
  exists c2. rewrite <- app_assoc, R1, R2, O2, O1, app_assoc, Z.add_assoc. auto.
Qed.

Lemma emits_copy src ds start len :
  0 <= start < 2 ^ 32 -> 0 < len < 2 ^ 16 -> start + len <= zlen src ->
  emits src ds (enc_copy start len) (slice src start len).
Proof.
  intros Hs Hl Hb r chunks ol Hol Hroom. rewrite zlen_slice in * by lia.
  destruct (parse_copy_enc_copy start len r) as (cmd & tl & -> & Hc & P); [lia..|].
  exists (slice src start len :: chunks). split; [|apply outc_cons].
  rewrite runP_S. cbn [app next_act]. rewrite P. cbv zeta.
  replace (128 <=? cmd) with true by lia. replace (len =? 0) with false by lia.
  replace (_ || _) with false by lia. replace (len >? ds - ol) with false by lia. reflexivity.
Qed.

Lemma emits_insert src ds data : 0 < zlen data < 128 -> emits src ds (zlen data :: data) data.
Proof.
  intros Hl r chunks ol Hol Hroom. exists (data :: chunks). split; [|apply outc_cons].
  rewrite runP_S. cbn [app next_act]. rewrite zlen_app. pose proof (zlen_nonneg r).
  replace (128 <=? zlen data) with false by lia. replace (zlen data =? 0) with false by lia.
  replace (_ <? zlen data) with false by lia. replace (zlen data >? ds - ol) with false by lia.
  rewrite zfirstn_app_exact, zskipn_app_exact by reflexivity. reflexivity.
Qed.

Lemma emits_copies src ds : forall fuel start len,
  0 <= start -> 0 <= len -> start + len <= zlen src < 2 ^ 32 -> len <= 65535 * Z.of_nat fuel ->
  emits src ds (enc_copies fuel start len) (slice src start len).
Proof.
  induction fuel as [|f IH]; intros start len Hs Hl Hb Hf; cbn [enc_copies].
  - replace len with 0 by lia. apply emits_nil.
  - destruct (len <=? 0) eqn:E; [replace len with 0 by lia; apply emits_nil|].
    set (c := Z.min len 65535).
    replace (slice src start len) with (slice src start c ++ slice src (start + c) (len - c))
      by (rewrite <- slice_split by lia; f_equal; lia).
    apply emits_app; [apply emits_copy|apply IH]; lia.
Qed.

Lemma emits_inserts src ds : forall fuel data,
  0 < zlen data <= 127 * Z.of_nat fuel -> emits src ds (enc_inserts fuel data) data.
Proof.
  induction fuel as [|f IH]; intros data Hl; [lia|]. cbn [enc_inserts].
  destruct (zlen data >? 127) eqn:E; [|apply emits_insert; lia].
  pose proof (zlen_zfirstn 127 data ltac:(lia)) as Hf. pose proof (zlen_zskipn 127 data ltac:(lia)) as Hk.
  rewrite <- (zfirstn_zskipn 127 data) at 3. rewrite <- Hf at 1.
  apply (emits_app _ _ (_ :: _)); [apply emits_insert|apply IH]; lia.
Qed.

(* the model's bytes_eqb is Bytes.bytes_beq under another name *)
Lemma bytes_eqb_eq : forall a b, bytes_eqb a b = true -> a = b.
Proof. exact (fun a b => proj1 (bytes_beq_spec a b)). Qed.

Lemma zlen_concat_in (x : bytes) l : In x l -> zlen x <= zlen (concat l).
Proof.
  induction l as [|y l IH]; intros H; [destruct H|].
  cbn [concat]. rewrite zlen_app. destruct H as [->|H].
  - pose proof (zlen_nonneg (concat l)). lia.
  - pose proof (zlen_nonneg y). specialize (IH H). lia.
Qed.

Lemma emits_op base target ds o : zlen base < 2 ^ 32 -> op_okb base target o = true ->
  emits base ds (enc_op target o) (piece base target o).
Proof.
  intros Hb Hok. unfold enc_op, piece, op_okb in *. destruct (tg o).
  - (* TEqual *) apply emits_copies; [lia..|]. apply div_fuel_ok; lia.
  - (* TReplace *) apply emits_inserts; split; [rewrite zlen_slice; lia|apply div_fuel_ok; [lia|apply zlen_nonneg]].
  - (* TInsert, encoded as TReplace is *)
    apply emits_inserts; split; [rewrite zlen_slice; lia|apply div_fuel_ok; [lia|apply zlen_nonneg]].
  - (* TDelete *) apply emits_nil.
Qed.

Lemma emits_ops base target ds ops :
  zlen base < 2 ^ 32 -> forallb (op_okb base target) ops = true ->
  emits base ds (concat (map (enc_op target) ops)) (concat (map (piece base target) ops)).
Proof.
  intros Hb. induction ops as [|o ops IH]; intros Hok; [apply emits_nil|].
  cbn [forallb] in Hok. apply andb_prop in Hok. destruct Hok. cbn [map concat].
  apply emits_app; [apply emits_op|apply IH]; assumption.
Qed.

Lemma emits_apply src e data :
  emits src (zlen data) e data ->
  apply_py src (enc_size (zlen src) ++ enc_size (zlen data) ++ e) = DOk data.
Proof.
  intros E. destruct (E [] [] 0) as (c & R & O); [lia..|]. rewrite app_nil_r in R.
  unfold apply_py. rewrite !hdr_py_enc_size by apply zlen_nonneg. rewrite Z.eqb_refl.
  fold (runP src (zlen src) (zlen data) e [] 0).
  rewrite R, runP_S. cbn [next_act]. unfold finish. fold (outc c). rewrite O. cbn [outc rev concat app].
  rewrite Z.eqb_refl. reflexivity.
Qed.

Lemma piece_ok_suffix src d delta c : suffix d delta -> piece_ok src d c -> piece_ok src delta c.
Proof.
  intros [k ->] [P|(a & n & ->)]; [left; exact P|right]. exists (Z.of_nat (k + Z.to_nat a)), n.
  unfold slice. rewrite Nat2Z.id, skipn_plus. reflexivity.
Qed.

Lemma hdr_py_suffix : forall d shift acc n r delta,
  hdr_py d shift acc = Some (n, r) -> suffix d delta -> suffix r delta.
Proof.
  induction d as [|c d IH]; intros shift acc n r delta H S; cbn [hdr_py] in H; [discriminate|].
  apply suffix_tail in S. destruct (c <? 128); [inversion H; subst; exact S|eapply IH; eauto].
Qed.

Lemma run_py_spec src ss ds delta : forall f d chunks ol,
  suffix d delta -> Forall (piece_ok src delta) chunks ->
  match run_py f src ss ds d chunks ol with
  | DOk out => zlen out = ds /\ Pieces src delta out
  | DErr => True
  | DPanic => False
  end.
Proof.
  induction f as [|f IH]; intros d chunks ol S Hall; [exact I|]. rewrite run_py_S.
  pose proof (next_act_spec src ss ds ol d) as A. destruct (next_act src ss ds ol d) as [| |c n r].
  - unfold finish. destruct (_ =? ds) eqn:E; [|exact I].
    split; [lia|]. exists (rev chunks). split; [reflexivity|apply Forall_rev; exact Hall].
  - exact I.
  - destruct A as (_ & S' & _ & P & _). apply IH; [exact (suffix_trans _ _ _ S' S)|].
    constructor; [exact (piece_ok_suffix _ _ _ _ S P)|exact Hall].
Qed.

Lemma apply_py_spec src delta :
  match apply_py src delta with
  | DOk out => declared_dest delta = Some (zlen out) /\ Pieces src delta out
  | DErr => True
  | DPanic => False
  end.
Proof.
  unfold apply_py, declared_dest, obind.
  destruct (hdr_py delta 0 0) as [[ss d1]|] eqn:E1; [|exact I].
  destruct (hdr_py d1 0 0) as [[ds d2]|] eqn:E2; [|exact I].
  destruct (ss =? zlen src); [|exact I].
  pose proof (hdr_py_suffix _ _ _ _ _ delta E1 (suffix_refl delta)) as S1.
  pose proof (hdr_py_suffix _ _ _ _ _ delta E2 S1) as S2.
  pose proof (run_py_spec src ss ds delta (S (length d2)) d2 [] 0 S2 (Forall_nil _)) as R.
  destruct (run_py _ src ss ds d2 [] 0); [|exact I|exact R]. destruct R as [<- R]. auto.
Qed.

(* get_delta_header_size shifts left in a word of Q*P values and back by the same
   amount: it gets v again exactly when nothing was shifted out *)
Lemma shl_shr_fits v P Q : 0 <= v -> 0 < P -> 0 < Q ->
  ((v * P) mod (Q * P) / P =? v) = (v * P <? Q * P).
Proof.
  intros Hv HP HQ. rewrite Z.mul_mod_distr_r, Z.div_mul by lia.
  destruct (Z.lt_ge_cases v Q) as [Hlt|Hge].
  - rewrite Z.mod_small, Z.eqb_refl by lia. symmetry. apply Z.ltb_lt. nia.
  - pose proof (Z.mod_pos_bound v Q HQ). transitivity false; [|symmetry]; [apply Z.eqb_neq|apply Z.ltb_ge]; nia.
Qed.

Lemma hdr_rs_cons c r shift acc : 0 <= shift -> shift + 7 < 2 ^ 64 ->
  hdr_rs (c :: r) shift acc =
  let w := c mod 128 * 2 ^ shift in
  if w <? 2 ^ 64 then (if c <? 128 then HOk (acc + w) r else hdr_rs r (shift + 7) (acc + w)) else HErr.
Proof.
  intros Hs Hb. cbn [hdr_rs]. cbv zeta. replace (Z.min (shift + 7) (2 ^ 64 - 1)) with (shift + 7) by lia.
  set (v := c mod 128). assert (Hv : 0 <= v < 128) by (unfold v; lia). pose proof (Z.pow_pos_nonneg 2 shift eq_refl Hs) as Hp.
  destruct (v =? 0) eqn:Ev.
  { replace v with 0 by lia. rewrite Z.mul_0_l, Z.add_0_r. reflexivity. }
  destruct (64 <=? shift) eqn:E64.
  { assert (2 ^ 64 <= 2 ^ shift) by (apply Z.pow_le_mono_r; lia).
    replace (v * 2 ^ shift <? 2 ^ 64) with false by nia. reflexivity. }
  unfold shl64, shr64. replace ((0 <=? shift) && (shift <? 64)) with true by lia.
  replace (2 ^ 64) with (2 ^ (64 - shift) * 2 ^ shift) by (rewrite <- Z.pow_add_r by lia; f_equal; lia).
  rewrite shl_shr_fits by (try apply Z.pow_pos_nonneg; lia).
  destruct (_ <? _) eqn:Ef; [rewrite Z.mod_small by lia|]; reflexivity.
Qed.

Lemma hdr_py_mono : forall d shift acc n r, 0 <= shift -> hdr_py d shift acc = Some (n, r) -> acc <= n.
Proof.
  induction d as [|c d IH]; intros shift acc n r Hs H; cbn [hdr_py] in H; [discriminate|].
  assert (0 <= c mod 128 * 2 ^ shift) by (pose proof (Z.pow_pos_nonneg 2 shift eq_refl Hs); nia).
  destruct (c <? 128); [inversion H; subst; lia|]. apply IH in H; lia.
Qed.

Lemma or_fits acc v s : 0 <= s -> 0 <= acc < 2 ^ s -> acc < 2 ^ 64 -> 0 <= v -> v * 2 ^ s < 2 ^ 64 ->
  acc + v * 2 ^ s < 2 ^ 64.
Proof.
  intros Hs Ha Ha64 Hv Hf. destruct (Z.le_gt_cases 64 s).
  - assert (2 ^ 64 <= 2 ^ s) by (apply Z.pow_le_mono_r; lia). assert (v = 0) by nia. subst v. lia.
  - replace (2 ^ 64) with (2 ^ (64 - s) * 2 ^ s) in * by (rewrite <- Z.pow_add_r by lia; f_equal; lia).
    assert (v + 1 <= 2 ^ (64 - s)) by nia. nia.
Qed.

(* the bits gathered so far lie below the next shift, so Rust's `|=` adds as
   Python's does, and the value fits usize exactly when every shifted byte did *)
Lemma hdr_rs_hdr_py : forall d shift acc,
  0 <= shift -> shift + 7 * zlen d < 2 ^ 64 - 1 -> 0 <= acc < 2 ^ shift -> acc < 2 ^ 64 ->
  hdr_rs d shift acc =
  match hdr_py d shift acc with Some (n, r) => if n <? 2 ^ 64 then HOk n r else HErr | None => HErr end.
Proof.
  induction d as [|c d IH]; intros shift acc Hs Hb Ha Ha64; [reflexivity|].
  rewrite zlen_cons in Hb. pose proof (zlen_nonneg d). rewrite hdr_rs_cons by lia. cbn [hdr_py]. cbv zeta.
  pose proof (Z.pow_pos_nonneg 2 shift eq_refl Hs) as Hp. set (v := c mod 128). assert (Hv : 0 <= v < 128) by (unfold v; lia).
  destruct (v * 2 ^ shift <? 2 ^ 64) eqn:Ef.
  - assert (acc + v * 2 ^ shift < 2 ^ 64) by (apply or_fits; lia).
    destruct (c <? 128); [replace (_ <? 2 ^ 64) with true by lia; reflexivity|].
    apply IH; try lia. rewrite Z.pow_add_r by lia. change (2 ^ 7) with 128. nia.
  - destruct (c <? 128); [replace (_ <? 2 ^ 64) with false by lia; reflexivity|].
    destruct (hdr_py d (shift + 7) (acc + v * 2 ^ shift)) as [[n r]|] eqn:E; [|reflexivity].
    apply hdr_py_mono in E; [|lia]. replace (n <? 2 ^ 64) with false by lia. reflexivity.
Qed.

(* while the output is within a declared size that fits usize, no subtraction or
   addition of the Rust loop can panic, and its tests come to those of Python *)
Lemma run_rs_S f src ss ds d chunks ol :
  wf_bytes d -> 0 <= ol <= ds -> ds < 2 ^ 64 ->
  run_rs (S f) src ss ds d chunks ol =
  match next_act src ss ds ol d with
  | AEnd => fin_rs ds chunks ol []
  | AErr => DErr
  | AStep c n r => run_rs f src ss ds r (c :: chunks) (ol + n)
  end.
Proof.
  intros W Ho Hds. unfold next_act. cbn [run_rs]. destruct d as [|cmd r]; [reflexivity|].
  inversion W as [|? ? Hc Wr]; subst. unfold wf_byte in Hc. unfold sub64, add64. destruct (128 <=? cmd).
  - destruct (parse_copy cmd r) as [[[off sz0] r']|] eqn:E; [|reflexivity]. cbv zeta.
    destruct (parse_copy_spec _ _ _ _ _ r E (suffix_refl r)) as [_ B]. apply B in Wr.
    set (sz := if sz0 =? 0 then 65536 else sz0) in *.
    destruct ((off + sz >? ss) || (sz >? ds)) eqn:G.
    + (* one of Rust's four range tests fires, and all four leave the loop alike *)
      transitivity (fin_rs ds chunks ol r'); [|destruct r'; reflexivity].
      destruct (sz >? ss) eqn:E1; [reflexivity|]. destruct (off >? ss) eqn:E2; [reflexivity|].
      replace (sz <=? ss) with true by lia. destruct (off >? ss - sz) eqn:E3; [reflexivity|].
      destruct (sz >? ds) eqn:E4; [reflexivity|lia].
    + replace (sz >? ss) with false by lia. replace (off >? ss) with false by lia.
      replace (sz <=? ss) with true by lia. replace (off >? ss - sz) with false by lia.
      replace (sz >? ds) with false by lia. replace (sz <=? ds) with true by lia.
      replace (ol >? ds - sz) with (sz >? ds - ol) by lia. destruct (sz >? ds - ol) eqn:E5; [reflexivity|].
      replace (ol + sz <? 2 ^ 64) with true by lia. reflexivity.
  - destruct (cmd =? 0) eqn:E0; [reflexivity|]. destruct (zlen r <? cmd) eqn:El; [reflexivity|].
    destruct (cmd >? ds) eqn:E1.
    + replace (cmd >? ds - ol) with true by lia. destruct r; [rewrite zlen_nil in El; lia|reflexivity].
    + replace (ol <=? ds) with true by lia. destruct (cmd >? ds - ol) eqn:E2; [reflexivity|].
      replace (ol + cmd <? 2 ^ 64) with true by lia. reflexivity.
Qed.

(* ol is the length of what has been produced: the step keeps it so when the
   declared source size is the real one *)
Lemma run_rs_run_py src ds : ds < 2 ^ 64 ->
  forall f d chunks ol, wf_bytes d -> ol = zlen (outc chunks) -> ol <= ds ->
  run_rs f src (zlen src) ds d chunks ol = run_py f src (zlen src) ds d chunks ol.
Proof.
  intros Hds. induction f as [|f IH]; intros d chunks ol W Hol Ho; [reflexivity|].
  pose proof (zlen_nonneg (outc chunks)). rewrite run_rs_S, run_py_S by (assumption || lia).
  pose proof (next_act_spec src (zlen src) ds ol d) as A. destruct (next_act src (zlen src) ds ol d) as [| |c n r].
  - subst ol. reflexivity.
  - reflexivity.
  - destruct A as (? & _ & _ & _ & B). destruct (B W) as (_ & Wr & Hc).
    apply IH; [exact Wr|rewrite outc_cons, zlen_app, Hc; lia|lia].
Qed.

(* an operation yields at most 2^24 bytes, so a delta too short for the size it
   declares is refused *)
Lemma run_py_short src ds : forall f d chunks ol,
  wf_bytes d -> zlen (outc chunks) + 2 ^ 24 * zlen d < ds -> run_py f src (zlen src) ds d chunks ol = DErr.
Proof.
  induction f as [|f IH]; intros d chunks ol W H; [reflexivity|]. rewrite run_py_S.
  pose proof (next_act_spec src (zlen src) ds ol d) as A. destruct (next_act src (zlen src) ds ol d) as [| |c n r].
  - unfold finish. fold (outc chunks). pose proof (zlen_nonneg d). replace (_ =? ds) with false by lia. reflexivity.
  - reflexivity.
  - destruct A as (_ & _ & L & _ & B). destruct (B W) as (? & Wr & Hc). apply IH; [exact Wr|].
    rewrite outc_cons, zlen_app, Hc by lia. unfold zlen in *. lia.
Qed.

(* 2^40 is what the proof uses of the length of the delta: 7 * 2^40 keeps the shift in either header below
   2^64 - 1 (hdr_rs_hdr_py); and a declared size of 2^64 or more, which Rust refuses, is more than the
   2^24 * 2^40 bytes the operations can yield, so Python refuses it too (run_py_short) *)
Lemma apply_rs_is_apply_py src delta :
  wf_bytes delta -> zlen delta < 2 ^ 40 -> zlen src < 2 ^ 64 ->
  apply_rs src delta = apply_py src delta.
Proof.
  intros W Hl Hs. pose proof (zlen_nonneg src). unfold apply_rs, apply_py. rewrite hdr_rs_hdr_py by lia.
  destruct (hdr_py delta 0 0) as [[ss d1]|] eqn:E1; [|reflexivity].
  pose proof (hdr_py_suffix _ _ _ _ _ delta E1 (suffix_refl delta)) as S1. apply hdr_py_mono in E1; [|lia].
  destruct (ss <? 2 ^ 64) eqn:Ess;
    [|replace (ss =? zlen src) with false by lia; destruct (hdr_py d1 0 0) as [[? ?]|]; reflexivity].
  destruct (ss =? zlen src) eqn:Eeq; [|destruct (hdr_py d1 0 0) as [[? ?]|]; reflexivity].
  replace ss with (zlen src) by lia.
  rewrite hdr_rs_hdr_py by (apply suffix_length in S1; unfold zlen in *; lia).
  destruct (hdr_py d1 0 0) as [[ds d2]|] eqn:E2; [|reflexivity].
  pose proof (hdr_py_suffix _ _ _ _ _ delta E2 S1) as S2. apply hdr_py_mono in E2; [|lia].
  pose proof (suffix_wf _ _ S2 W) as W2.
  destruct (ds <? 2 ^ 64) eqn:Eds.
  - apply (run_rs_run_py src ds); [lia|exact W2|reflexivity|exact E2].
  - symmetry. apply run_py_short; [exact W2|]. apply suffix_length in S2.
    change (zlen (outc [])) with 0. unfold zlen in *. lia.
Qed.

(* the case analysis is that of run_py_S; the chunk is not looked at, so any src will do *)
Lemma mat_py_S src f ss ds d ol :
  mat_py (S f) ss ds d ol =
  match next_act src ss ds ol d with
  | AStep _ n r => mat_py f ss ds r (ol + n)
  | _ => ol
  end.
Proof.
  unfold next_act. cbn [mat_py]. destruct d as [|cmd r]; [reflexivity|]. destruct (128 <=? cmd).
  - destruct (parse_copy cmd r) as [[[off sz0] r']|]; [|reflexivity]. cbv zeta.
    destruct (_ || _); [destruct r'; reflexivity|]. destruct (_ >? ds - ol); reflexivity.
  - destruct (cmd =? 0); [reflexivity|]. destruct (zlen r <? cmd); [reflexivity|].
    destruct (cmd >? ds - ol); reflexivity.
Qed.

Lemma mat_py_bound ss : forall f ds d outlen,
  wf_bytes d -> 0 <= outlen <= ds ->
  outlen <= mat_py f ss ds d outlen <= Z.min ds (outlen + 2 ^ 24 * zlen d).
Proof.
  induction f as [|f IH]; intros ds d ol W Ho; pose proof (zlen_nonneg d); [cbn [mat_py]; lia|].
  rewrite (mat_py_S []). pose proof (next_act_spec [] ss ds ol d) as A.
  destruct (next_act [] ss ds ol d) as [| |c n r]; try lia.
  destruct A as (? & _ & L & _ & B). destruct (B W) as (? & Wr & _).
  specialize (IH ds r (ol + n) Wr ltac:(lia)). unfold zlen in *. lia.
Qed.

(* the two loops apply the same tests, Rust in five steps where Python has three *)
Lemma alloc_rs_mat_py ss ds : forall f d ol,
  wf_bytes d -> 0 <= ol -> alloc_rs f ss ds d ol = mat_py f ss ds d ol.
Proof.
  induction f as [|f IH]; intros d ol W Ho; [reflexivity|]. cbn [alloc_rs mat_py].
  destruct d as [|cmd r]; [reflexivity|]. inversion W as [|? ? Hc Wr]; subst. unfold wf_byte in Hc.
  destruct (128 <=? cmd).
  - destruct (parse_copy cmd r) as [[[off sz0] r']|] eqn:E; [|reflexivity]. cbv zeta.
    destruct (parse_copy_spec _ _ _ _ _ r E (suffix_refl r)) as [S B]. destruct (B Wr) as [? ?].
    set (sz := if sz0 =? 0 then 65536 else sz0) in *.
    destruct ((off + sz >? ss) || (sz >? ds)) eqn:G; [replace (_ || _) with true by lia; reflexivity|].
    destruct (sz >? ds - ol) eqn:G2; [replace (_ || _) with true by lia; reflexivity|].
    replace (_ || _) with false by lia. apply IH; [exact (suffix_wf _ _ S Wr)|lia].
  - destruct (cmd =? 0); [reflexivity|]. destruct (zlen r <? cmd); [reflexivity|].
    destruct (cmd >? ds - ol) eqn:G; [destruct (cmd >? ds); reflexivity|].
    replace (cmd >? ds) with false by lia. apply IH; [apply wf_bytes_skipn; exact Wr|lia].
Qed.

(* non-vacuity: the hypotheses are satisfiable, the results non-trivial *)
Example ex_valid :
  let base := [104;101;108;108;111] in let target := [104;101;121;108;111] in
  let ops := [ {| tg := TEqual; i1 := 0; i2 := 2; j1 := 0; j2 := 2 |};
               {| tg := TReplace; i1 := 2; i2 := 3; j1 := 2; j2 := 3 |};
               {| tg := TEqual; i1 := 3; i2 := 5; j1 := 3; j2 := 5 |} ] in
  valid_opcodesb base target ops = true /\ zlen base < 2 ^ 32 /\
  apply_py base (create_py base target ops) = DOk target /\
  apply_rs base (create_py base target ops) = DOk target.
Proof. vm_compute. repeat split; reflexivity. Qed.
