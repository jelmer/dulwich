(* Proofs/TreeDiffP.v — _merge_entries pairs every name of two sorted directories once;
   the recursive diff lists exactly the paths whose file differs; flattening agrees with lookup *)
From Coq Require FinFun.
From DV Require Import RustTwinsP TreeDiff.

Lemma lt_neq a b : bytes_cmp a b = OLt -> a <> b.
Proof. intros H ->. rewrite bytes_cmp_refl in H. discriminate. Qed.
Lemma gt_neq a b : bytes_cmp a b = OLt -> bytes_cmp b a <> OEq.
Proof. intros H; apply bytes_cmp_flip in H; rewrite H; discriminate. Qed.

Lemma find_cons e r n : find n (e :: r) = if bytes_beq (t_name e) n then Some e else find n r.
Proof. reflexivity. Qed.

Lemma find_nil n : find n [] = None. Proof. reflexivity. Qed.

Lemma find_head e r : find (t_name e) (e :: r) = Some e.
Proof. rewrite find_cons, bytes_beq_refl. reflexivity. Qed.

Lemma find_tail e r n : t_name e <> n -> find n (e :: r) = find n r.
Proof. intros H. rewrite find_cons, (bytes_beq_neq _ _ H). reflexivity. Qed.

Lemma find_name n l e : find n l = Some e -> In e l /\ t_name e = n.
Proof. unfold find. intros H. apply find_some in H. destruct H as [H1 H2]. apply bytes_beq_spec in H2. auto. Qed.

Definition below (m : bytes) (l : list tent) : Prop := Forall (fun x => bytes_cmp m (t_name x) = OLt) l.

Inductive sorted_ents : list tent -> Prop :=
| se_nil : sorted_ents []
| se_cons e r : below (t_name e) r -> sorted_ents r -> sorted_ents (e :: r).

Lemma below_in m l x : below m l -> In x l -> bytes_cmp m (t_name x) = OLt.
Proof. intros B. apply (proj1 (Forall_forall _ _) B). Qed.

Lemma below_found m l n : below m l -> find n l <> None -> bytes_cmp m n = OLt.
Proof.
  intros B H. destruct (find n l) as [e|] eqn:E; [|contradiction]. apply find_name in E. destruct E as [I <-].
  exact (below_in _ _ _ B I).
Qed.

Lemma below_cons m e r : bytes_cmp m (t_name e) = OLt -> below (t_name e) r -> below m (e :: r).
Proof. intros C B. constructor; [exact C|]. eapply Forall_impl; [|exact B]. intros x. apply bytes_cmp_trans, C. Qed.

(* a sorted list seen from a name m that sorts before all its names but possibly the first:
   the entry called m, if there is one, and the entries after it *)
Inductive at_name (m : bytes) : list tent -> option tent -> list tent -> Prop :=
| an_hit e r : t_name e = m -> below m r -> at_name m (e :: r) (Some e) r
| an_miss l : below m l -> at_name m l None l.

Lemma at_name_find m l o r : at_name m l o r -> find m l = o /\ below m r /\ forall n, m <> n -> find n l = find n r.
Proof.
  intros [e r' <- B|l' B].
  - split; [apply find_head|]. split; [exact B|]. intros n. apply find_tail.
  - split; [|auto]. destruct (find m l') eqn:E; [|reflexivity]. exfalso.
    apply (lt_neq m m); [apply (below_found m l' m B); rewrite E; discriminate|reflexivity].
Qed.

Definition pair_ok (l1 l2 : list tent) (p : pair) : Prop :=
  fst p = find (pair_name p) l1 /\ snd p = find (pair_name p) l2 /\ (fst p <> None \/ snd p <> None).

Inductive sorted_pairs : list (pair) -> Prop :=
| sp_nil : sorted_pairs []
| sp_cons p r : Forall (fun q => bytes_cmp (pair_name p) (pair_name q) = OLt) r -> sorted_pairs r -> sorted_pairs (p :: r).

(* M pairs every name of l1 or l2 once, in increasing order, with the entries of that name *)
Definition merged (l1 l2 : list tent) (M : list pair) : Prop :=
  Forall (pair_ok l1 l2) M /\ sorted_pairs M /\
  (forall n, (find n l1 <> None \/ find n l2 <> None) -> In n (map pair_name M)).

Lemma merged_nil : merged [] [] [].
Proof. split; [constructor|]. split; [constructor|]. intros n [H|H]; exfalso; apply H; reflexivity. Qed.

(* the step every case of _merge_entries takes: the least name m is paired, the rest is merged *)
Lemma merged_cons m l1 l2 o1 o2 r1 r2 M :
  at_name m l1 o1 r1 -> at_name m l2 o2 r2 -> o1 <> None \/ o2 <> None ->
  merged r1 r2 M -> merged l1 l2 ((o1, o2) :: M).
Proof.
  intros A1 A2 NN (OK & SP & CO).
  assert (PN : pair_name (o1, o2) = m).
  { destruct A1 as [e1 ? E1 _|]; [exact E1|]. destruct A2 as [e2 ? E2 _|]; [exact E2|]. destruct NN as [N|N]; contradiction N; reflexivity. }
  apply at_name_find in A1. destruct A1 as (F1 & B1 & T1). apply at_name_find in A2. destruct A2 as (F2 & B2 & T2).
  (* the names paired in M occur in r1 or r2, so they sort after m *)
  assert (AB : Forall (fun p => bytes_cmp m (pair_name p) = OLt) M).
  { eapply Forall_impl; [|exact OK]. intros p (P1 & P2 & [P|P]); [apply (below_found m r1)|apply (below_found m r2)]; congruence. }
  split; [|split].
  - constructor; [unfold pair_ok; cbn [fst snd]; rewrite PN; auto|].
    rewrite Forall_forall in OK, AB. apply Forall_forall. intros p I. destruct (OK p I) as (P1 & P2 & P3).
    unfold pair_ok. rewrite T1, T2 by exact (lt_neq _ _ (AB p I)). auto.
  - constructor; [rewrite PN; exact AB|exact SP].
  - intros n Hn. cbn [map]. rewrite PN. destruct (list_eq_dec Z.eq_dec m n) as [E|E]; [left; exact E|right].
    apply CO. rewrite <- T1, <- T2 by exact E. exact Hn.
Qed.

Lemma merge_entries_merged : forall fuel l1 l2, sorted_ents l1 -> sorted_ents l2 -> (length l1 + length l2 <= fuel)%nat ->
  merged l1 l2 (merge_entries fuel l1 l2).
Proof.
  induction fuel as [|f IH]; intros l1 l2 S1 S2 Hf.
  { destruct l1; destruct l2; cbn [length] in Hf; try lia. apply merged_nil. }
  destruct S1 as [|e1 r1 F1 S1]; destruct S2 as [|e2 r2 F2 S2]; cbn [merge_entries length] in *.
  - apply merged_nil.
  - apply (merged_cons (t_name e2) [] _ None _ [] r2).
    + apply an_miss. constructor.
    + apply an_hit; [reflexivity|exact F2].
    + right. discriminate.
    + apply IH; [apply se_nil|exact S2|cbn [length]; lia].
  - apply (merged_cons (t_name e1) _ [] _ None r1 []).
    + apply an_hit; [reflexivity|exact F1].
    + apply an_miss. constructor.
    + left. discriminate.
    + apply IH; [exact S1|apply se_nil|cbn [length]; lia].
  - destruct (bytes_cmp (t_name e1) (t_name e2)) eqn:C.
    + apply (merged_cons (t_name e1) _ _ _ None r1 (e2 :: r2)).
      * apply an_hit; [reflexivity|exact F1].
      * apply an_miss, below_cons; assumption.
      * left. discriminate.
      * apply IH; [exact S1|apply se_cons; assumption|cbn [length]; lia].
    + apply bytes_cmp_eq in C. apply (merged_cons (t_name e1) _ _ _ (Some e2) r1 r2).
      * apply an_hit; [reflexivity|exact F1].
      * apply an_hit; [symmetry; exact C|rewrite C; exact F2].
      * left. discriminate.
      * apply IH; [exact S1|exact S2|lia].
    + apply bytes_cmp_flip in C. apply (merged_cons (t_name e2) _ _ None _ (e1 :: r1) r2).
      * apply an_miss, below_cons; assumption.
      * apply an_hit; [reflexivity|exact F2].
      * right. discriminate.
      * apply IH; [apply se_cons; assumption|exact S2|cbn [length]; lia].
Qed.

Lemma merge_merged l1 l2 : sorted_ents l1 -> sorted_ents l2 -> merged l1 l2 (merge l1 l2).
Proof. intros S1 S2. apply merge_entries_merged; [exact S1|exact S2|apply le_n]. Qed.

Lemma look_none st q : look st None q = None.
Proof. induction q as [|n r IH]; [reflexivity|]. cbn [look sub]. exact IH. Qed.

Lemma look_file st e q : is_dir (t_mode e) = false ->
  look st (Some e) q = match q with [] => Some (t_mode e, t_id e) | _ :: _ => None end.
Proof. intros D. destruct q as [|m r]; cbn [look as_leaf sub]; rewrite D; [reflexivity|apply look_none]. Qed.

Lemma look_dir st e q : is_dir (t_mode e) = true ->
  look st (Some e) q = match q with [] => None | m :: r => look st (find m (st (t_id e))) r end.
Proof. intros D. destruct q as [|m r]; cbn [look as_leaf sub]; rewrite D; reflexivity. Qed.

Lemma find_in_sorted l : sorted_ents l -> forall c, In c l -> find (t_name c) l = Some c.
Proof.
  induction 1 as [|e r F _ IH]; intros c Hc; [contradiction|]. destruct Hc as [->|Hc]; [apply find_head|].
  rewrite find_tail; [apply IH; exact Hc|]. exact (lt_neq _ _ (below_in _ _ _ F Hc)).
Qed.

Lemma tent_eqb_eq a b : tent_eqb a b = true -> a = b.
Proof.
  unfold tent_eqb. intros H. apply andb_prop in H. destruct H as [H H3]. apply andb_prop in H. destruct H as [H1 H2].
  apply bytes_beq_spec in H1. apply bytes_beq_spec in H3. apply Z.eqb_eq in H2. destruct a, b; cbn in *. subst. reflexivity.
Qed.
Lemma oeqb_eq e1 e2 : oeqb e1 e2 = true -> e1 = e2.
Proof. destruct e1, e2; cbn; intros H; try discriminate; [apply tent_eqb_eq in H; subst|]; reflexivity. Qed.
Lemma tent_eqb_refl a : tent_eqb a a = true.
Proof. unfold tent_eqb. rewrite !bytes_beq_refl, Z.eqb_refl. reflexivity. Qed.

(* wfb as a proposition *)
Fixpoint wft (fuel : nat) (st : store) (e : option tent) : Prop :=
  sorted_ents (sub st e) /\
  match fuel with
  | O => sub st e = []
  | S f => forall c, In c (sub st e) -> wft f st (Some c)
  end.

Lemma wft_leaf f st e : sub st e = [] -> wft f st e.
Proof. intros E. destruct f; cbn [wft]; rewrite E; split; try constructor. intros c []. Qed.

Lemma wft_find st f e n : wft (S f) st e -> wft f st (find n (sub st e)).
Proof.
  intros [_ W]. destruct (find n (sub st e)) as [c|] eqn:E; [|apply wft_leaf; reflexivity].
  apply W. apply (find_name _ _ _ E).
Qed.

Lemma sortedb_sorted l : sortedb l = true -> sorted_ents l.
Proof.
  induction l as [|a r IH]; intros H; [constructor|].
  destruct r as [|b r']; [constructor; [constructor|constructor]|].
  cbn [sortedb] in H. apply andb_prop in H. destruct H as [H1 H2].
  destruct (bytes_cmp (t_name a) (t_name b)) eqn:C; try discriminate.
  specialize (IH H2). constructor; [|exact IH]. inversion IH as [|? ? F S']; subst. exact (below_cons _ _ _ C F).
Qed.

Lemma wfb_wft st : forall f e, wfb f st e = true -> wft f st e.
Proof.
  induction f as [|f IH]; intros e H; cbn [wfb wft] in *; apply andb_prop in H; destruct H as [H1 H2]; split; try (apply sortedb_sorted; exact H1).
  - destruct (sub st e); [reflexivity|discriminate].
  - intros c Hc. apply IH. rewrite forallb_forall in H2. apply H2. exact Hc.
Qed.

(* what tree_delta lists: a path with the file found there before and after *)
Definition delta_item := (path * option leaf * option leaf)%type.
Definition item_path (d : delta_item) : path := fst (fst d).
Definition item_under (n : bytes) (d : delta_item) : delta_item := (n :: fst (fst d), snd (fst d), snd d).

(* the test by which walk skips a pair of equal trees: the model's local expression, named *)
Definition pruned_pair (pr : pair) : bool := is_tree (fst pr) && is_tree (snd pr) && oeqb (fst pr) (snd pr).

Lemma pruned_pair_eq pr : pruned_pair pr = true -> fst pr = snd pr.
Proof. unfold pruned_pair. intros P. apply andb_prop in P. apply oeqb_eq, P. Qed.

Lemma walk_unfold st f p pr : walk f st p pr =
  if p && pruned_pair pr then []
  else ([], pr) ::
       match f with
       | O => []
       | S f' => flat_map (fun c => map (fun x => (pair_name c :: fst x, snd x)) (walk f' st p c))
                          (merge (sub st (fst pr)) (sub st (snd pr)))
       end.
Proof. destruct f, p; reflexivity. Qed.

Lemma tree_delta_unfold st f pr : tree_delta f st pr =
  if pruned_pair pr then []
  else own_delta pr ++
       match f with
       | O => []
       | S f' => flat_map (fun c => map (item_under (pair_name c)) (tree_delta f' st c)) (merge (sub st (fst pr)) (sub st (snd pr)))
       end.
Proof.
  unfold tree_delta at 1. rewrite walk_unfold. cbn [andb]. destruct (pruned_pair pr); [reflexivity|].
  cbn [flat_map fst snd app]. rewrite (map_ext _ id), map_id by (intros [[q o] n]; reflexivity).
  f_equal. destruct f as [|f]; [reflexivity|].
  induction (merge (sub st (fst pr)) (sub st (snd pr))) as [|c cs IH]; [reflexivity|].
  cbn [flat_map]. rewrite flat_map_app, IH. f_equal.
  apply flat_map_map_comm. intros [q x]. cbn [fst snd]. rewrite map_map. apply map_ext. intros [[q' o] n]. reflexivity.
Qed.

Lemma in_kids (D : pair -> list delta_item) cs q o n :
  In (q, o, n) (flat_map (fun c => map (item_under (pair_name c)) (D c)) cs) <->
  exists c r, In c cs /\ q = pair_name c :: r /\ In (r, o, n) (D c).
Proof.
  rewrite in_flat_map. split.
  - intros (c & I & H). apply in_map_iff in H. destruct H as ([[r o'] n'] & E & H). injection E as <- <- <-. eauto.
  - intros (c & r & I & -> & H). exists c. split; [exact I|]. apply in_map_iff. exists (r, o, n). auto.
Qed.

Lemma kids_paths (D : pair -> list delta_item) cs q :
  In q (map item_path (flat_map (fun c => map (item_under (pair_name c)) (D c)) cs)) -> exists c r, In c cs /\ q = pair_name c :: r.
Proof.
  intros H. apply in_map_iff in H. destruct H as ([[q' o] n] & <- & H). apply in_kids in H.
  destruct H as (c & r & I & E & _). eauto.
Qed.

Lemma kids_nodup (D : pair -> list delta_item) cs : sorted_pairs cs -> (forall c, In c cs -> NoDup (map item_path (D c))) ->
  NoDup (map item_path (flat_map (fun c => map (item_under (pair_name c)) (D c)) cs)).
Proof.
  induction 1 as [|c cs F _ IH]; intros ND; [constructor|].
  cbn [flat_map]. rewrite map_app. apply NoDup_app.
  - rewrite map_map. rewrite <- (map_map item_path (cons (pair_name c))).
    apply FinFun.Injective_map_NoDup; [|apply ND; left; reflexivity]. intros a b Hab. injection Hab as ->. reflexivity.
  - apply IH. intros c' Hc'. apply ND. right. exact Hc'.
  - intros q Hq Hq'. rewrite map_map in Hq. apply in_map_iff in Hq. destruct Hq as (d & <- & _).
    apply kids_paths in Hq'. destruct Hq' as (c' & r & Hc' & Heq). injection Heq as Hn _.
    rewrite Forall_forall in F. apply (lt_neq _ _ (F c' Hc')). exact Hn.
Qed.

(* oeqb compares names, as_leaf drops them: own_delta is the difference of the two files only for
   entries of one name, which the two roots and the pairs _merge_entries forms are *)
Definition names_agree (pr : pair) : Prop :=
  match pr with (Some a, Some b) => t_name a = t_name b | _ => True end.

Lemma pair_ok_names l1 l2 c : pair_ok l1 l2 c -> names_agree c.
Proof.
  destruct c as [[a|] [b|]]; cbn [names_agree]; auto. intros (_ & P2 & _). cbn [fst snd pair_name] in P2.
  symmetry in P2. apply find_name in P2. symmetry. apply P2.
Qed.

Definition oleaf_eq_dec : forall a b : option leaf, {a = b} + {a <> b}.
Proof. decide equality. decide equality; [apply (list_eq_dec Z.eq_dec)|apply Z.eq_dec]. Defined.

(* two entries of one name that differ hold different files, unless neither holds a file *)
Lemma differ_as_leaf pr : names_agree pr -> oeqb (fst pr) (snd pr) = false ->
  as_leaf (fst pr) = as_leaf (snd pr) -> as_leaf (fst pr) = None.
Proof.
  destruct pr as [[a|] [b|]]; cbn [fst snd as_leaf oeqb names_agree]; intros NA E; try reflexivity; [|intros H; exact H].
  destruct (is_dir (t_mode a)); [reflexivity|]. destruct (is_dir (t_mode b)); [discriminate|]. intros H. injection H as H1 H2.
  unfold tent_eqb in E. rewrite NA, H1, H2, !bytes_beq_refl, Z.eqb_refl in E. discriminate.
Qed.

Lemma own_delta_eq pr : names_agree pr ->
  own_delta pr = if oleaf_eq_dec (as_leaf (fst pr)) (as_leaf (snd pr)) then [] else [([], as_leaf (fst pr), as_leaf (snd pr))].
Proof.
  intros NA. unfold own_delta. destruct (oeqb (fst pr) (snd pr)) eqn:E.
  - apply oeqb_eq in E. destruct (oleaf_eq_dec _ _) as [_|D]; [reflexivity|]. rewrite E in D. contradiction.
  - destruct (oleaf_eq_dec _ _) as [D|D].
    + rewrite <- D, (differ_as_leaf pr NA E D). reflexivity.
    + destruct (as_leaf (fst pr)), (as_leaf (snd pr)); try reflexivity. contradiction.
Qed.

Lemma own_spec pr q o n : names_agree pr ->
  (In (q, o, n) (own_delta pr) <-> q = [] /\ o = as_leaf (fst pr) /\ n = as_leaf (snd pr) /\ o <> n).
Proof.
  intros NA. rewrite (own_delta_eq pr NA). destruct (oleaf_eq_dec _ _) as [D|D].
  - split; [intros []|]. intros (_ & -> & -> & H). contradiction.
  - split; [intros [H|[]]; injection H as <- <- <-; auto|]. intros (-> & -> & -> & _). left. reflexivity.
Qed.

(* D lists exactly the paths below pr whose file differs, each once, with the old and the new file *)
Definition spec_for (st : store) (pr : pair) (D : list delta_item) : Prop :=
  (forall q o n, In (q, o, n) D <-> o = look st (fst pr) q /\ n = look st (snd pr) q /\ o <> n) /\
  NoDup (map item_path D).

(* one level: a pair's own change followed by the changes of the pairs merged from the two directories *)
Lemma node_spec st pr cs (D : pair -> list delta_item) : names_agree pr ->
  merged (sub st (fst pr)) (sub st (snd pr)) cs -> (forall c, In c cs -> spec_for st c (D c)) ->
  spec_for st pr (if pruned_pair pr then [] else own_delta pr ++ flat_map (fun c => map (item_under (pair_name c)) (D c)) cs).
Proof.
  intros NA (OK & SP & CO) KID. rewrite Forall_forall in OK. destruct (pruned_pair pr) eqn:P.
  { apply pruned_pair_eq in P. split; [|constructor]. intros q o n. split; [intros []|]. intros (-> & -> & H). rewrite P in H. contradiction. }
  split.
  - intros q o n. rewrite in_app_iff, (own_spec pr q o n NA), in_kids. destruct q as [|m r]; cbn [look].
    + split; [|intros (A & B & C); left; auto]. intros [(_ & A)|(c & r & _ & E & _)]; [exact A|discriminate].
    + split.
      * intros [(E & _)|(c & r' & I & E & H)]; [discriminate|]. injection E as -> ->.
        destruct (OK c I) as (P1 & P2 & _). rewrite <- P1, <- P2. apply (KID c I). exact H.
      * intros (-> & -> & H). right.
        assert (Hm : find m (sub st (fst pr)) <> None \/ find m (sub st (snd pr)) <> None).
        { destruct (find m (sub st (fst pr))); [left; discriminate|]. destruct (find m (sub st (snd pr))); [right; discriminate|].
          contradiction H. reflexivity. }
        apply CO, in_map_iff in Hm. destruct Hm as (c & <- & I). destruct (OK c I) as (P1 & P2 & _).
        exists c, r. split; [exact I|]. split; [reflexivity|]. apply (KID c I). rewrite P1, P2. auto.
  - assert (K : NoDup (map item_path (flat_map (fun c => map (item_under (pair_name c)) (D c)) cs))).
    { apply kids_nodup; [exact SP|]. intros c I. apply (KID c I). }
    (* the pair's own item, if there is one, has the empty path; the children's paths start with a name *)
    rewrite (own_delta_eq pr NA). destruct (oleaf_eq_dec _ _); [exact K|]. cbn [app map]. constructor; [|exact K].
    intros Hq. apply kids_paths in Hq. destruct Hq as (c & r & _ & E). discriminate.
Qed.

Lemma tree_delta_spec st : forall f pr, wft f st (fst pr) -> wft f st (snd pr) -> names_agree pr ->
  spec_for st pr (tree_delta f st pr).
Proof.
  induction f as [|f IH]; intros pr W1 W2 NA; rewrite tree_delta_unfold.
  - apply (node_spec st pr [] (fun _ => [])); [exact NA| |intros c []].
    destruct W1 as [_ ->], W2 as [_ ->]. apply merged_nil.
  - pose proof (merge_merged _ _ (proj1 W1) (proj1 W2)) as MG. apply node_spec; [exact NA|exact MG|].
    intros c I. destruct MG as (OK & _). rewrite Forall_forall in OK. specialize (OK c I).
    pose proof (pair_ok_names _ _ c OK) as NC. destruct OK as (P1 & P2 & _).
    apply IH; [rewrite P1; apply wft_find, W1|rewrite P2; apply wft_find, W2|exact NC].
Qed.

Lemma tree_delta_wfb st f pr : wfb f st (fst pr) = true -> wfb f st (snd pr) = true -> names_agree pr ->
  spec_for st pr (tree_delta f st pr).
Proof. intros W1 W2. apply tree_delta_spec; apply wfb_wft; assumption. Qed.

Lemma path_beq_spec : forall a b, path_beq a b = true <-> a = b.
Proof.
  induction a as [|x a IH]; intros [|y b]; cbn [path_beq]; split; intros H; try discriminate; try reflexivity.
  - apply andb_prop in H. destruct H as [H1 H2]. apply bytes_beq_spec in H1. apply IH in H2. subst. reflexivity.
  - inversion H; subst. rewrite bytes_beq_refl. cbn. apply IH. reflexivity.
Qed.

(* the left side is [patched] with D for the change list *)
Lemma spec_applies st pr D : spec_for st pr D -> forall q,
  match find_delta q D with Some (_, n) => n | None => look st (fst pr) q end = look st (snd pr) q.
Proof.
  intros [SP _] q. unfold find_delta. destruct (List.find (fun x => path_beq (fst (fst x)) q) D) as [[[q' o] n]|] eqn:E.
  - apply find_some in E. destruct E as [E1 E2]. cbn [fst snd] in *. apply path_beq_spec in E2. subst q'.
    apply SP in E1. destruct E1 as (_ & -> & _). reflexivity.
  - destruct (oleaf_eq_dec (look st (fst pr) q) (look st (snd pr) q)) as [H|H]; [exact H|].
    assert (I : In (q, look st (fst pr) q, look st (snd pr) q) D) by (apply SP; auto).
    apply (find_none _ _ E) in I. cbn [fst] in I. rewrite (proj2 (path_beq_spec q q) eq_refl) in I. discriminate.
Qed.

Lemma flatten_file_spec f st e q lf : is_dir (t_mode e) = false ->
  (In (q, lf) (flatten f st e) <-> look st (Some e) q = Some lf).
Proof.
  intros D. rewrite (look_file st e q D).
  replace (flatten f st e) with [(@nil bytes, (t_mode e, t_id e))] by (destruct f; cbn [flatten]; rewrite D; reflexivity).
  destruct q as [|m r].
  - split; [intros [H|[]]|intros H]; injection H as <-; [reflexivity|left; reflexivity].
  - split; [intros [H|[]]|]; discriminate.
Qed.

Lemma flatten_spec st : forall f e, wft f st (Some e) ->
  forall q lf, In (q, lf) (flatten f st e) <-> look st (Some e) q = Some lf.
Proof.
  induction f as [|f IH]; intros e W q lf.
  - (* no fuel: a file, or a directory that is empty *)
    destruct (is_dir (t_mode e)) eqn:D; [|apply flatten_file_spec; exact D].
    rewrite (look_dir st e q D). cbn [flatten]. rewrite D. destruct W as [S W]. cbn [sub] in S, W. rewrite D in S, W.
    rewrite W. split; [contradiction|]. destruct q as [|m r]; [discriminate|]. rewrite find_nil, look_none. discriminate.
  - (* a file, or a directory: through the entry the first name of the path finds *)
    destruct (is_dir (t_mode e)) eqn:D; [|apply flatten_file_spec; exact D].
    rewrite (look_dir st e q D). cbn [flatten]. rewrite D. destruct W as [S W]. cbn [sub] in S, W. rewrite D in S, W.
    split.
    + intros H. apply in_flat_map in H. destruct H as (c & Hc & H). apply in_map_iff in H. destruct H as ([r lf'] & Heq & Hr).
      cbn [fst snd] in Heq. injection Heq as <- <-. rewrite (find_in_sorted _ S c Hc). apply IH; [apply W; exact Hc|exact Hr].
    + destruct q as [|m r]; [discriminate|].
      destruct (find m (st (t_id e))) as [c|] eqn:E; [|rewrite look_none; discriminate].
      apply find_name in E. destruct E as [Hc <-]. intros H. apply in_flat_map. exists c. split; [exact Hc|].
      apply in_map_iff. exists (r, lf). split; [reflexivity|]. apply IH; [apply W; exact Hc|exact H].
Qed.
