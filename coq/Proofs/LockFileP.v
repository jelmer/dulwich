(* Proofs/LockFileP.v — one invariant of every run of the lock-file protocol; mutual exclusion, no foreign
   unlock and whole-file replacement are read off it *)
From DV Require Import ListFacts LockFile Lock.

Definition flushed (p : pc) : bool := match p with PFsync | PCloseFd | PReplace => true | _ => false end.
Definition owner (l : option (nat * option Z)) : option nat := option_map fst l.
(* v is the initial content t0 or the complete data of one of the actors f that has committed *)
Definition whole (t0 : option Z) (f : nat -> actor) (v : option Z) : Prop :=
  v = t0 \/ exists j, a_pc (f j) = PDone Committed /\ v = Some (a_data (f j)).

(* t0 is the initial content.  lf_lock: the creator named in the lock file is the one actor at a critical pc.
   lf_flushed: once an actor has flushed, the lock file holds its data. *)
Record lockfile_inv (t0 : option Z) (s : state) : Prop := {
  lf_lock : owned_by (owner (lockf s)) (fun j => critical (a_pc (acts s j)));
  lf_flushed : forall i, flushed (a_pc (acts s i)) = true -> lockf s = Some (i, Some (a_data (acts s i)));
  lf_target : whole t0 (acts s) (target s);
  lf_seen : forall i v, In v (a_seen (acts s i)) -> whole t0 (acts s) v
}.

Definition fresh (a : actor) : Prop := a_seen a = [] /\ (a_pc a = POpen \/ a_pc a = PRead).

Lemma init_inv t0 l : Forall fresh l -> lockfile_inv t0 (init t0 l).
Proof.
  intros F.
  assert (P : forall i, a_seen (nth i l idle) = [] /\ critical (a_pc (nth i l idle)) = false /\ flushed (a_pc (nth i l idle)) = false).
  { intros i. destruct (Nat.lt_ge_cases i (length l)) as [H|H].
    - rewrite Forall_forall in F. destruct (F (nth i l idle) (nth_In _ _ H)) as [A [B|B]]; rewrite B; auto.
    - rewrite (nth_overflow _ _ H). auto. }
  constructor; cbn [init target lockf acts].
  - apply unowned. intros i. apply P.
  - intros i H. destruct (P i) as (_ & _ & A). congruence.
  - left. reflexivity.
  - intros i v H. destruct (P i) as (A & _). rewrite A in H. contradiction.
Qed.

(* a committed actor makes no further call, so what is whole stays so when another actor moves *)
Lemma whole_upd t0 f i a' v : a_pc (f i) <> PDone Committed -> whole t0 f v -> whole t0 (upd f i a') v.
Proof.
  intros N [A|[j [A B]]]; [left; exact A|right]. exists j. unfold upd.
  destruct (Nat.eqb_spec j i) as [->|_]; [contradiction|auto].
Qed.

(* one call of actor i, which becomes a'.  Whoever else relies on the content of the lock file owns it,
   so i may change it only as owner or when there is none; the protected file changes to what i commits *)
Lemma inv_upd t0 s i a' s' : lockfile_inv t0 s -> acts s' = upd (acts s) i a' ->
  a_pc (acts s i) <> PDone Committed ->
  lock_move i (owner (lockf s)) (critical (a_pc (acts s i))) (owner (lockf s')) (critical (a_pc a')) ->
  lockf s' = lockf s \/ lockf s = None \/ critical (a_pc (acts s i)) = true ->
  (flushed (a_pc a') = true -> lockf s' = Some (i, Some (a_data a'))) ->
  target s' = target s \/ a_pc a' = PDone Committed /\ target s' = Some (a_data a') ->
  (forall v, In v (a_seen a') -> v = target s \/ In v (a_seen (acts s i))) ->
  lockfile_inv t0 s'.
Proof.
  intros [L F T S] EA Hnd M Fr Fl T' S'. pose proof (fun v => whole_upd t0 (acts s) i a' v Hnd) as W.
  constructor; rewrite EA.
  - exact (owned_by_upd (fun a => critical (a_pc a)) _ _ _ _ _ L M).
  - apply (upd_all (fun j a => flushed (a_pc a) = true -> lockf s' = Some (j, Some (a_data a)))); [exact Fl|].
    intros j N X. specialize (F j X).
    destruct Fr as [->|[E|E]]; [exact F|congruence|]. apply L in E. rewrite F in E. injection E as E. contradiction.
  - destruct T' as [->|[A ->]]; [exact (W _ T)|]. right. exists i. unfold upd. rewrite Nat.eqb_refl. auto.
  - apply (upd_all (fun _ a => forall v, In v (a_seen a) -> whole t0 (upd (acts s) i a') v)).
    + intros v X. apply W. destruct (S' v X) as [->|Y]; [exact T|exact (S i v Y)].
    + intros j _ v X. exact (W v (S j v X)).
Qed.

Lemma inv_move t0 s i p' lf' : lockfile_inv t0 s ->
  a_pc (acts s i) <> PDone Committed ->
  lock_move i (owner (lockf s)) (critical (a_pc (acts s i))) (owner lf') (critical p') ->
  lf' = lockf s \/ lockf s = None \/ critical (a_pc (acts s i)) = true ->
  (flushed p' = true -> lf' = Some (i, Some (a_data (acts s i)))) ->
  lockfile_inv t0 {| target := target s; lockf := lf'; acts := upd (acts s) i (set_pc (acts s i) p'); history := history s |}.
Proof. intros Hinv Hnd M Fr Fl. apply (inv_upd t0 s i (set_pc (acts s i) p')); auto. Qed.

Lemma with_pc_inv t0 s i p :
  lockfile_inv t0 s ->
  a_pc (acts s i) <> PDone Committed ->
  critical p = critical (a_pc (acts s i)) ->
  (flushed p = true -> flushed (a_pc (acts s i)) = true) ->
  lockfile_inv t0 (with_pc s i p).
Proof.
  intros Hinv Hnd Hc Hf. apply inv_move; auto.
  - rewrite Hc. apply lock_kept.
  - intros X. apply (lf_flushed _ _ Hinv), Hf, X.
Qed.

(* the call only moves actor i, to a pc at which it holds the lock if and only if it did and has flushed only
   if it had: lock file and protected file stay (with_pc_inv).  E says at which pc it was. *)
Local Ltac stays E := apply with_pc_inv; rewrite ?E; cbn; auto; discriminate.

Lemma step_inv t0 s i f : lockfile_inv t0 s -> lockfile_inv t0 (step s i f).
Proof.
  intros Hinv. unfold step. destruct (a_pc (acts s i)) eqn:E.
  - (* POpen: the lock is taken, unless the call fails or the lock file exists *)
    destruct f; [stays E|]. destruct (lockf s) as [[o c]|] eqn:L; [stays E|].
    apply inv_move; [exact Hinv|rewrite E; discriminate|rewrite L; apply lock_taken|auto|discriminate].
  - (* PWrite *)
    destruct f; [|destruct (a_aborts (acts s i))]; stays E.
  - (* PFlush: the owner puts its data into the lock file *)
    destruct f; [stays E|].
    assert (O : owner (lockf s) = Some i) by (apply (lf_lock _ _ Hinv); rewrite E; reflexivity).
    apply inv_move; [exact Hinv|rewrite E; discriminate|rewrite E, O; apply lock_kept|rewrite E; auto|reflexivity].
  - (* PFsync *)
    destruct f; stays E.
  - (* PCloseFd *)
    destruct f; stays E.
  - (* PReplace: the rename puts the flushed content in place and releases the lock *)
    destruct f; [stays E|].
    pose proof (lf_flushed _ _ Hinv i) as Fi. rewrite E in Fi. specialize (Fi eq_refl). rewrite Fi.
    apply (inv_upd t0 s i (set_pc (acts s i) (PDone Committed))); cbn [target lockf acts]; rewrite ?E; auto; try discriminate.
    apply lock_released.
  - (* PAbortClose *)
    stays E.
  - (* PRemove: the lock is released *)
    apply inv_move; [exact Hinv|rewrite E; discriminate|rewrite E; apply lock_released|rewrite E; auto|discriminate].
  - (* PRead: what is read is the current content *)
    destruct f; [stays E|].
    eapply (inv_upd t0 s i); [exact Hinv|reflexivity|..]; cbn [target lockf acts a_pc a_seen]; rewrite ?E; auto;
      try discriminate.
    + apply lock_kept.
    + intros v [<-|X]; auto.
  - (* PDone *)
    exact Hinv.
Qed.

Lemma run_inv t0 l sched : Forall fresh l -> lockfile_inv t0 (run (init t0 l) sched).
Proof. intros F. apply (fold_left_inv _ (lockfile_inv t0)); [intros s x _; apply step_inv|exact (init_inv t0 l F)]. Qed.

(* a call changes the lock file only when there is none or the caller owns it *)
Lemma lockf_frame s i f : lockf (step s i f) = lockf s \/ lockf s = None \/ critical (a_pc (acts s i)) = true.
Proof.
  unfold step. destruct (a_pc (acts s i)), f; cbn; auto.
  - (* POpen *) destruct (lockf s) eqn:L; cbn; auto.
Qed.

Lemma foreign_step_keeps_lock t0 s i f j c : lockfile_inv t0 s -> lockf s = Some (j, c) -> i <> j ->
  lockf (step s i f) = Some (j, c).
Proof.
  intros Hinv L N. destruct (lockf_frame s i f) as [->|[E|E]]; [exact L|congruence|].
  apply (lf_lock _ _ Hinv) in E. rewrite L in E. injection E as E. congruence.
Qed.

Lemma target_changes_only_on_commit t0 s i f : lockfile_inv t0 s ->
  target (step s i f) <> target s \/ history (step s i f) <> history s ->
  a_pc (acts (step s i f) i) = PDone Committed /\ a_pc (acts s i) = PReplace /\
  target (step s i f) = Some (a_data (acts s i)).
Proof.
  (* a call that fails, and any call but the three below, leaves both as they are *)
  intros Hinv. unfold step. destruct (a_pc (acts s i)) eqn:E, f; try (cbn; intros [X|X]; contradiction).
  - (* POpen *) destruct (lockf s); cbn; intros [X|X]; contradiction.
  - (* PWrite *) destruct (a_aborts (acts s i)); cbn; intros [X|X]; contradiction.
  - (* PReplace *)
    pose proof (lf_flushed _ _ Hinv i) as Fi. rewrite E in Fi. specialize (Fi eq_refl). rewrite Fi.
    cbn [target history acts]. intros _. unfold upd. rewrite Nat.eqb_refl. cbn. auto.
Qed.
