(* Proofs/ObjectsP.v — the ShaFile cache, header folding, tree entries and decimal numbers of Model/Objects.v *)
From DV Require Import Radix RustTwinsP Objects.
From DV Require Sep.

(* what _needs_serialization = False promises: the chunks, and the id if one is cached, are of the current version *)
Definition cinv (c : cache) : Prop :=
  (needs_ser c = false -> chunked_ver c = ver c) /\
  (forall h, sha_ver c = Some h -> needs_ser c = false -> h = ver c).

Lemma cinv_init : cinv cache_init.
Proof. split; cbn; discriminate. Qed.

Lemma as_raw_props c : cinv c ->
  cinv (as_raw c) /\ needs_ser (as_raw c) = false /\ chunked_ver (as_raw c) = ver (as_raw c).
Proof.
  intros [H1 H2]. unfold as_raw. destruct (needs_ser c) eqn:E; cbn.
  - repeat split; auto. intros h Hh. discriminate.
  - repeat split; auto.
Qed.

Lemma cstep_inv c o : cinv c -> cinv (fst (cstep c o)) /\
  (forall v, snd (cstep c o) = Some v -> v = ver (fst (cstep c o))).
Proof.
  intros Hc. destruct (as_raw_props c Hc) as (A1 & A2 & A3).
  destruct o; cbn [cstep fst snd].
  - (* CSet *) split; [split; cbn; discriminate|discriminate].
  - (* CAsRaw *) split; [exact A1|]. intros v [= <-]. exact A3.
  - (* CId *) destruct (sha_ver c) as [h|] eqn:Eh; [destruct (needs_ser c) eqn:En|]; cbn [fst snd].
    + (* the cached id is stale: a new one is computed from the chunks *)
      split; [split; cbn; [intros _; exact A3|intros h' [= <-] _; exact A3]|intros v [= <-]; exact A3].
    + (* the cached id is returned *) split; [exact Hc|]. intros v [= <-]. apply Hc; assumption.
    + (* no id is cached: one is computed from the chunks *)
      split; [split; cbn; [intros _; exact A3|intros h' [= <-] _; exact A3]|intros v [= <-]; exact A3].
  - (* CIdOther *) split; [exact A1|]. intros v [= <-]. exact A3.
  - (* CSetRaw *) split; [split; cbn; [reflexivity|discriminate]|discriminate].
  - (* CBlobChunked *) split; [split; cbn; [reflexivity|discriminate]|discriminate].
Qed.

Lemma crun_exact : forall ops c, cinv c -> Forall (fun p => fst p = snd p) (crun c ops).
Proof.
  induction ops as [|o ops IH]; intros c Hc; cbn [crun]; [constructor|].
  pose proof (cstep_inv c o Hc) as [I' Hobs]. destruct (cstep c o) as [c' obs]. cbn [fst snd] in *.
  destruct obs as [v|]; [|apply IH; exact I'].
  constructor; [cbn; apply Hobs; reflexivity|apply IH; exact I'].
Qed.

Example ex_cache :
  crun cache_init [CSet; CId; CSet; CAsRaw; CId; CBlobChunked; CId; CSetRaw; CIdOther; CId] =
  [(1, 1); (2, 2); (2, 2); (3, 3); (4, 4); (4, 4)]%nat.
Proof. vm_compute. reflexivity. Qed.

(* split_lf, lines and split_sp are Sep.split LF, Sep.lines LF and Sep.split1 SP by conversion *)
Lemma split_lf_join l cur : concat (map (fun x => x ++ [LF]) (split_lf l cur)) = rev cur ++ l ++ [LF].
Proof. exact (Sep.split_concat LF l cur). Qed.

Lemma split_lf_no_lf l cur : ~ In LF cur -> Forall (fun f => ~ In LF f) (split_lf l cur).
Proof. exact (Sep.split_fields LF l cur). Qed.

Lemma split_lf_nonempty l cur : split_lf l cur <> [].
Proof. exact (Sep.split_nonempty LF l cur). Qed.

Lemma lines_concat l cur : concat (lines l cur) = rev cur ++ l.
Proof. exact (Sep.lines_concat LF l cur). Qed.

Lemma lines_of_lines ls rest : Forall (Sep.is_line LF) ls -> lines (concat ls ++ rest) [] = ls ++ lines rest [].
Proof. exact (Sep.lines_of_lines LF ls rest). Qed.

Lemma split_sp_at k rest cur : ~ In SP k -> split_sp (k ++ SP :: rest) cur = Some (rev cur ++ k, rest).
Proof. exact (Sep.split1_at SP k rest cur). Qed.

Definition key_ok (k : bytes) : Prop := k <> [] /\ Forall (fun c => c <> SP /\ c <> LF) k.

Lemma key_ok_notin k c : key_ok k -> c = SP \/ c = LF -> ~ In c k.
Proof. intros [_ F] Hc I. rewrite Forall_forall in F. destruct (F c I) as [N1 N2]. destruct Hc; contradiction. Qed.

Definition header_lines (h : bytes * bytes) : list bytes :=
  match split_lf (snd h) [] with
  | [] => []
  | first :: rest => (fst h ++ SP :: first ++ [LF]) :: map (fun l => SP :: l ++ [LF]) rest
  end.

Lemma format_header_lines h : format_header h = concat (header_lines h).
Proof.
  unfold format_header, header_lines. destruct (split_lf (snd h) []) as [|first rest]; [reflexivity|].
  cbn [concat]. rewrite flat_map_concat_map. rewrite <- !app_assoc. cbn [app]. rewrite <- !app_assoc. reflexivity.
Qed.

Lemma header_lines_wf h : key_ok (fst h) -> Forall (Sep.is_line LF) (header_lines h).
Proof.
  intros Hk. unfold header_lines.
  pose proof (split_lf_no_lf (snd h) [] (fun I => I)) as Hs.
  destruct (split_lf (snd h) []) as [|first rest]; [constructor|].
  inversion Hs as [|? ? Hf Hr]; subst. constructor.
  - exists (fst h ++ SP :: first). split; [rewrite <- app_assoc; reflexivity|].
    rewrite in_app_iff. intros [I|[I|I]]; [exact (key_ok_notin _ LF Hk (or_intror eq_refl) I)|discriminate|exact (Hf I)].
  - eapply Forall_map, Forall_impl; [|exact Hr]. intros l Hl.
    exists (SP :: l). split; [reflexivity|]. intros [I|I]; [discriminate|exact (Hl I)].
Qed.

Lemma strip_last_lf_app v : strip_last_lf (v ++ [LF]) = v.
Proof.
  unfold strip_last_lf. rewrite rev_app_distr. cbn [rev app]. change (LF =? LF) with true. cbv iota.
  apply rev_involutive.
Qed.

Lemma parse_conts : forall (rest : list bytes) ls k v,
  parse_lines (map (fun l => SP :: l ++ [LF]) rest ++ ls) k v =
  parse_lines ls k (v ++ concat (map (fun l => l ++ [LF]) rest)).
Proof.
  induction rest as [|l rest IH]; intros ls k v; cbn [map app concat].
  - rewrite app_nil_r. reflexivity.
  - cbn [parse_lines]. change (SP =? SP) with true. cbv iota. rewrite IH. rewrite <- app_assoc. reflexivity.
Qed.

(* the open header (k, v) as parse_lines emits it when a line closes it: the model's local flush,
   repeated so that the lemmas can name it *)
Definition flushk (k : option bytes) (v : bytes) : list pitem :=
  match k with Some key => [PHeader key (strip_last_lf v)] | None => [] end.

Lemma parse_header_line key rest ls k v : key_ok key ->
  parse_lines ((key ++ SP :: rest) :: ls) k v = flushk k v ++ parse_lines ls (Some key) rest.
Proof.
  intros K. pose proof (key_ok_notin _ SP K (or_introl eq_refl)) as NS. destruct K as [Hne Hk].
  destruct key as [|c kk]; [contradiction|]. inversion Hk as [|? ? [Hc1 Hc2] _]; subst.
  cbn [parse_lines app]. replace (c =? SP) with false by lia. replace (c =? LF) with false by lia. cbn [andb].
  change (c :: kk ++ SP :: rest) with ((c :: kk) ++ SP :: rest). rewrite (split_sp_at _ _ [] NS). reflexivity.
Qed.

Lemma parse_one_header h ls k v : key_ok (fst h) ->
  parse_lines (header_lines h ++ ls) k v =
  flushk k v ++ parse_lines ls (Some (fst h)) (snd h ++ [LF]).
Proof.
  intros Hk. unfold header_lines. pose proof (split_lf_join (snd h) []) as Hj.
  destruct (split_lf (snd h) []) as [|first rest] eqn:Es; [destruct (split_lf_nonempty _ _ Es)|].
  cbn [app]. rewrite parse_header_line by exact Hk. rewrite parse_conts.
  cbn [map concat rev app] in Hj. rewrite Hj. reflexivity.
Qed.

(* by induction on the headers, with any header (k, v) still open in front *)
Lemma message_roundtrip_open (b : bytes) hs : Forall (fun h => key_ok (fst h)) hs -> forall k v,
  parse_lines (lines (flat_map format_header hs ++ [LF] ++ b) []) k v =
  flushk k v ++ map (fun h => PHeader (fst h) (snd h)) hs ++ [PBody (Some b)].
Proof.
  induction 1 as [|h hs Hh _ IH]; intros k v.
  - (* the blank line closes the open header; what follows is the body *)
    change (lines (flat_map format_header [] ++ [LF] ++ b) []) with ([LF] :: lines b []).
    cbn [parse_lines]. change (LF =? SP) with false. change ((LF =? LF) && true) with true. cbv iota.
    rewrite lines_concat. reflexivity.
  - cbn [flat_map]. rewrite <- app_assoc, format_header_lines, lines_of_lines by (apply header_lines_wf; exact Hh).
    rewrite parse_one_header by exact Hh. rewrite IH. cbn [flushk map app]. rewrite strip_last_lf_app. reflexivity.
Qed.

(* octal_digits is Radix.digits 8 by conversion *)
Lemma octal04_spec n : 0 <= n ->
  octal_value (octal04 n) = n /\ forallb is_octal (octal04 n) = true /\ octal04 n <> [].
Proof.
  intros Hn. unfold octal04, octal. destruct (digits_log2 8 n ltac:(lia) Hn) as (V & D & N).
  change (digits 8) with octal_digits in *. set (d := octal_digits _ n []) in *.
  split; [change (octal_value ?l) with (value 8 l 0); rewrite value_zeros; exact V|]. split.
  - apply (Forall_forallb (digit 8)); [unfold digit, is_octal; lia|]. apply Forall_app. split; [|exact D].
    apply Forall_forall. intros c I. apply repeat_spec in I. subst c. unfold digit. lia.
  - intros H. apply app_eq_nil in H. destruct H. contradiction.
Qed.

Definition entry_ok (sha_len : Z) (e : tentry) : Prop :=
  let '(name, mode, sha) := e in ~ In 0 name /\ 0 <= mode <= 4294967295 /\ zlen sha = sha_len.

Lemma entry_roundtrip_py sha_len e rest : entry_ok sha_len e ->
  py_entry sha_len false (serialize_entry e ++ rest) = Some (e, rest).
Proof.
  destruct e as [[name mode] sha]. intros (Hname & Hmode & Hsha). unfold serialize_entry.
  destruct (octal04_spec mode ltac:(lia)) as (V & O & N). set (m := octal04 mode) in *.
  unfold py_entry. rewrite <- !app_assoc. cbn [app].
  (* the mode ends at the first space *)
  rewrite find_byte_skip by (apply (forallb_notin _ _ _ O); reflexivity).
  rewrite zfirstn_app_exact, zskipn_app_exact by reflexivity. cbn [andb].
  replace (match m with [] => true | _ :: _ => false end) with false by (destruct m; [contradiction|reflexivity]).
  rewrite O. cbn [negb orb]. rewrite V. replace (mode >? 4294967295) with false by lia.
  (* the name ends at the first NUL after it *)
  change (SP :: name ++ 0 :: sha ++ rest) with ((SP :: name) ++ 0 :: sha ++ rest).
  rewrite find_byte_skip by (intros [H|H]; [discriminate|contradiction]).
  rewrite (zskipn_app_plus (SP :: name) _ 1) by lia. change (zskipn 1 (0 :: ?x)) with x.
  change (slice ((SP :: name) ++ ?x) 1 ?n) with (zfirstn n (name ++ x)).
  rewrite zlen_cons. replace (1 + zlen name - 1) with (zlen name) by lia. rewrite (zfirstn_app_exact name) by reflexivity.
  (* the id is the next sha_len bytes *)
  rewrite zlen_app. pose proof (zlen_nonneg rest). replace (zlen sha + zlen rest <? sha_len) with false by lia.
  rewrite <- Hsha, zfirstn_app_exact, zskipn_app_exact by reflexivity. reflexivity.
Qed.

Lemma serialize_entry_nonempty e : serialize_entry e <> [].
Proof.
  destruct e as [[name mode] sha]. unfold serialize_entry. intros H.
  apply app_eq_nil in H. destruct H as [_ H]. discriminate.
Qed.

Lemma parse_serialize_tree sha_len : forall es fuel,
  Forall (entry_ok sha_len) es -> (length es < fuel)%nat ->
  py_parse_tree fuel sha_len false (serialize_tree es) = Some es.
Proof.
  induction es as [|e es IH]; intros fuel Hall Hf; destruct fuel as [|f]; try (cbn in Hf; lia).
  - reflexivity.
  - inversion Hall as [|? ? He Hes]; subst. cbn [py_parse_tree serialize_tree flat_map].
    destruct (serialize_entry e ++ flat_map serialize_entry es) as [|c t] eqn:E.
    { apply app_eq_nil in E. destruct E as [E _]. exfalso. eapply serialize_entry_nonempty; eauto. }
    rewrite <- E. rewrite entry_roundtrip_py by exact He.
    fold (serialize_tree es). rewrite IH; [reflexivity|exact Hes|cbn in Hf; lia].
Qed.

(* decimal numbers: dec_digits is Radix.digits 10 and dec_value l is Radix.value 10 l 0, by conversion *)
Lemma spells_is_digit l n : spells 10 l n -> forallb is_digit l = true.
Proof. intros (_ & D & _). revert D. apply Forall_forallb. unfold digit, is_digit. lia. Qed.

Lemma parse_dec_spells l n : spells 10 l n -> parse_dec l = Some n.
Proof.
  intros Sl. pose proof (spells_is_digit l n Sl) as F. destruct Sl as (V & D & N).
  destruct l as [|x r]; [contradiction|]. assert (x <> 45) by (inversion D; unfold digit in *; lia).
  unfold parse_dec. rewrite F. change (dec_value (x :: r)) with (value 10 (x :: r) 0). rewrite V.
  (* parse_dec tests the head against the literal 45, bit by bit *)
  destruct x as [|p|p]; try reflexivity. do 6 (try (destruct p as [p|p|]; try reflexivity)). contradiction.
Qed.

Lemma spells_dec n : 0 <= n -> spells 10 (dec n) n.
Proof. intros Hn. unfold dec. replace (n <? 0) with false by lia. apply digits_log2; lia. Qed.

Lemma dec_neg n : n < 0 -> dec n = 45 :: dec (- n).
Proof. intros Hn. unfold dec. replace (n <? 0) with true by lia. replace (- n <? 0) with false by lia. reflexivity. Qed.

(* str() then int() *)
Lemma parse_dec_dec n : parse_dec (dec n) = Some n.
Proof.
  destruct (Z.ltb_spec n 0) as [Hn|Hn]; [|apply parse_dec_spells, spells_dec; exact Hn].
  rewrite dec_neg by exact Hn. pose proof (spells_dec (- n) ltac:(lia)) as Sd.
  unfold parse_dec. rewrite (spells_is_digit _ _ Sd). destruct Sd as (V & _ & N).
  destruct (dec (- n)); [contradiction|]. cbn [andb]. f_equal. change (dec_value ?l) with (value 10 l 0). rewrite V. lia.
Qed.

Lemma dec_chars n c : In c (dec n) -> c = 45 \/ (48 <= c <= 57).
Proof.
  assert (P : forall m, 0 <= m -> In c (dec m) -> 48 <= c <= 57).
  { intros m Hm I. destruct (spells_dec m Hm) as (_ & D & _). rewrite Forall_forall in D. specialize (D c I). unfold digit in D. lia. }
  destruct (Z.ltb_spec n 0) as [Hn|Hn]; [|right; apply (P n); assumption].
  rewrite dec_neg by exact Hn. intros [<-|I]; [left; reflexivity|right; apply (P (- n)); [lia|exact I]].
Qed.
