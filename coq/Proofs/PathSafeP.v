(* Proofs/PathSafeP.v — a validated path stays inside the work tree and outside .git *)
From DV Require Import PathSafe.
From DV Require Sep.

(* no byte folds to an upper-case letter *)
Lemma lower_byte_fix c : lower_byte c < 65 \/ 90 < lower_byte c.
Proof. unfold lower_byte. destruct ((65 <=? c) && (c <=? 90)) eqn:E; lia. Qed.

Lemma lower_byte_low c x : lower_byte c = x -> x < 65 -> c = x.
Proof. unfold lower_byte. destruct ((65 <=? c) && (c <=? 90)) eqn:E; lia. Qed.

(* only letters fold: what folds to a string without letters is that string *)
Lemma lower_low e x : lower e = x -> forallb (fun c => c <? 65) x = true -> e = x.
Proof.
  intros <-. induction e as [|c e IH]; [reflexivity|]. cbn [lower map forallb]. intros F.
  apply andb_prop in F. destruct F as [Hc F]. f_equal; [apply (lower_byte_low c _ eq_refl); lia|apply IH, F].
Qed.

Lemma invalid_name_iff n : invalid_name n = true <-> n = DOTGIT \/ n = DOT \/ n = DOTDOT \/ n = [].
Proof. unfold invalid_name. rewrite !orb_true_iff, !bytes_beq_spec. tauto. Qed.

Lemma valid_default_safe e : valid_default e = true -> e <> [] /\ e <> DOT /\ e <> DOTDOT /\ lower e <> DOTGIT.
Proof.
  unfold valid_default. rewrite negb_true_iff, <- not_true_iff_false, invalid_name_iff. intros H.
  repeat split; intros E; apply H; [right; right; right|right; left|right; right; left|left]; rewrite E; reflexivity.
Qed.

(* a name the default validator refuses is still refused once its trailing dots and spaces are gone *)
Lemma valid_ntfs_implies_default e : valid_ntfs e = true -> valid_default e = true.
Proof.
  unfold valid_ntfs, valid_default. intros H. apply andb_prop in H. destruct H as [_ H].
  rewrite negb_true_iff, <- not_true_iff_false, invalid_name_iff in *. intros Hn. apply H. clear H.
  destruct Hn as [Hn|[Hn|[Hn|Hn]]].
  - (* lower e = ".git": e has four bytes, the last is t or T: nothing to strip *)
    left. destruct e as [|a [|b [|c [|d [|x r]]]]]; try discriminate Hn. cbn [lower map] in Hn. injection Hn as Ha Hb Hc Hd.
    assert (D : dot_or_space d = false) by (unfold dot_or_space, lower_byte in *; destruct ((65 <=? d) && (d <=? 90)); lia).
    cbn [rstrip_ds]. rewrite D. cbn [lower map]. rewrite Ha, Hb, Hc, Hd. reflexivity.
  (* ".", ".." and "" hold no letter, so e is that name, and strips to "" *)
  - right; right; right. apply lower_low in Hn; [subst e; reflexivity|reflexivity].
  - right; right; right. apply lower_low in Hn; [subst e; reflexivity|reflexivity].
  - right; right; right. apply lower_low in Hn; [subst e; reflexivity|reflexivity].
Qed.

Lemma normalize_safe : forall cs acc,
  Forall (fun c => c <> [] /\ c <> DOT /\ c <> DOTDOT) cs -> normalize cs acc = Some (rev acc ++ cs).
Proof.
  induction cs as [|c r IH]; intros acc F; cbn [normalize]; [rewrite app_nil_r; reflexivity|].
  inversion F as [|? ? (A & B & C) F']; subst. rewrite !bytes_beq_neq by assumption.
  cbn [orb]. rewrite IH by exact F'. cbn [rev]. rewrite <- app_assoc. reflexivity.
Qed.

(* the separator is an argument of PathSafe.split_on's fix, of Sep.split a parameter *)
Lemma split_on_eq sep : forall l cur, split_on sep l cur = Sep.split sep l cur.
Proof. induction l as [|x l IH]; intros cur; cbn; [|rewrite !IH]; reflexivity. Qed.

Lemma split_on_nonempty sep l cur : split_on sep l cur <> [].
Proof. rewrite split_on_eq. apply Sep.split_nonempty. Qed.

Lemma validated_path_inside validator p :
  (forall e, validator e = true -> valid_default e = true) ->
  validate_path validator p = true ->
  let cs := split_on 47 p [] in
  normalize cs [] = Some cs /\ cs <> [] /\
  Forall (fun c => c <> [] /\ c <> DOT /\ c <> DOTDOT /\ lower c <> DOTGIT) cs.
Proof.
  intros V H cs. unfold validate_path in H. fold cs in H. rewrite forallb_forall in H.
  assert (F : Forall (fun c => c <> [] /\ c <> DOT /\ c <> DOTDOT /\ lower c <> DOTGIT) cs).
  { apply Forall_forall. intros c Hc. apply valid_default_safe. apply V. apply H. exact Hc. }
  split; [|split; [apply split_on_nonempty|exact F]].
  change cs with (rev [] ++ cs) at 2. apply normalize_safe. eapply Forall_impl; [|exact F]. intros c (A & B & C & _). auto.
Qed.

Lemma ntfs_tail_pad pad rest : forallb dot_or_space pad = true -> (rest = [] \/ exists x, rest = 58 :: x) -> ntfs_tail (pad ++ rest) = true.
Proof.
  intros P R. induction pad as [|c t IH]; cbn [app].
  - destruct R as [->|[x ->]]; reflexivity.
  - cbn [forallb] in P. apply andb_prop in P. destruct P as [P1 P2]. cbn [ntfs_tail].
    destruct (c =? 58); [reflexivity|]. rewrite P1. apply IH. exact P2.
Qed.

Lemma split_no_sep sep : forall l cur, forallb (fun c => negb (c =? sep)) l = true -> split_on sep l cur = [rev cur ++ l].
Proof. intros l cur H. rewrite split_on_eq. apply Sep.split_last, Sep.nosep_forallb, H. Qed.

Lemma ntfs_dotgit_refused e seg : In seg (split_on 92 e []) -> is_ntfs_dotgit seg = true -> valid_ntfs e = false.
Proof.
  intros I D. unfold valid_ntfs. replace (existsb is_ntfs_dotgit (split_on 92 e [])) with true; [reflexivity|].
  symmetry. apply existsb_exists. eauto.
Qed.

Lemma ntfs_dotgit_spellings g i t pad rest :
  lower [g; i; t] = [103; 105; 116] -> forallb dot_or_space pad = true ->
  (rest = [] \/ exists x, rest = 58 :: x) ->
  is_ntfs_dotgit (46 :: g :: i :: t :: pad ++ rest) = true /\
  is_ntfs_dotgit (g :: i :: t :: 126 :: 49 :: pad ++ rest) = true.
Proof.
  intros L P R. pose proof (ntfs_tail_pad pad rest P R) as T. split.
  - cbn [is_ntfs_dotgit]. rewrite L, bytes_beq_refl. exact T.
  - (* g is 'g' or 'G', so the match on a leading '.' falls through by computation *)
    assert (G : g = 103 \/ g = 71) by (injection L as Lg _ _; unfold lower_byte in Lg; destruct (_ && _); lia).
    destruct G; subst g; cbn [is_ntfs_dotgit]; rewrite L, bytes_beq_refl; exact T.
Qed.
