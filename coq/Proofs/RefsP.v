(* Proofs/RefsP.v — the two-level files store seen as the flat map dread: what a
   write, a delete, packing and the compare of a compare-and-swap do to it.  The
   writers' contracts follow from these by cases on their guards (Props/C16.v). *)
From DV Require Import Refs.

Lemma rget_rset m n v q : rget q (rset n v m) = if bytes_beq q n then Some v else rget q m.
Proof. exact (kget_kset m n v q). Qed.

Lemma rget_rdel m n q : rget q (rdel n m) = if bytes_beq q n then None else rget q m.
Proof. exact (kget_kdel m n q). Qed.

Definition upd (d : disk) (n : bytes) (v : option rval) (q : bytes) : option rval :=
  if bytes_beq q n then v else dread d q.

(* a loose file shadows whatever packed-refs says *)
Lemma dread_write d n v q :
  dread {| loose := rset n v (loose d); packed := packed d |} q = upd d n (Some v) q.
Proof. unfold dread, upd. cbn [loose packed]. rewrite rget_rset. destruct (bytes_beq q n); reflexivity. Qed.

Lemma dread_delete d n q :
  dread {| loose := rdel n (loose d); packed := rdel n (packed d) |} q = upd d n None q.
Proof. unfold dread, upd. cbn [loose packed]. rewrite !rget_rdel. destruct (bytes_beq q n); reflexivity. Qed.

Lemma upd_noop d n v q : dread d n = v -> upd d n v q = dread d q.
Proof. intros <-. unfold upd. destruct (bytes_beq q n) eqn:E; [apply bytes_beq_spec in E; subst|]; reflexivity. Qed.

Lemma pack_one_dread all d n q : dread (pack_one all d n) q = dread d q.
Proof.
  unfold pack_one. destruct (selected all n); [|reflexivity].
  destruct (dread d n) as [[h|t]|] eqn:E; try reflexivity.
  unfold dread at 1. cbn [loose packed]. rewrite rget_rdel, rget_rset.
  destruct (bytes_beq q n) eqn:Eq; [|reflexivity]. apply bytes_beq_spec in Eq. subst q. symmetry. exact E.
Qed.

(* following symbolic refs only uses dread, hence so does every observer *)
Lemma follow_ext (r1 r2 : bytes -> option rval) : (forall q, r1 q = r2 q) ->
  forall fuel n acc, follow_f r1 fuel n acc = follow_f r2 fuel n acc.
Proof.
  intros H. induction fuel as [|f IH]; intros n acc; cbn [follow_f]; rewrite H; [reflexivity|].
  destruct (r2 n) as [[h|t]|]; try reflexivity. apply IH.
Qed.

Lemma getitem_ext d1 d2 : (forall q, dread d1 q = dread d2 q) -> forall n, getitem d1 n = getitem d2 n.
Proof. intros H n. unfold getitem, follow. rewrite (follow_ext _ _ H). reflexivity. Qed.

(* the compare part of the compare-and-swap writers *)
Lemma old_matches d x (old : option bytes) :
  (if match old with Some o => negb (orig_is d x o) | None => false end
   then exists o, old = Some o /\ orig_is d x o = false
   else forall o, old = Some o -> orig_is d x o = true).
Proof.
  destruct old as [o|]; [|discriminate]. destruct (orig_is d x o) eqn:E; cbn [negb].
  - intros o' Ho. inversion Ho; subst. exact E.
  - eauto.
Qed.

(* set_if_equals writes nothing when the value is there already *)
Lemma already_there d x new :
  match dread d x with Some v => rval_eqb v (Sha new) | None => false end = true -> dread d x = Some (Sha new).
Proof.
  destruct (dread d x) as [[h|t]|]; try discriminate. cbn [rval_eqb]. intros E. apply bytes_beq_spec in E. subst. reflexivity.
Qed.

Lemma follow_f_none read : forall fuel n acc chain dflt,
  follow_f read fuel n acc = Some (chain, None) -> read (last chain dflt) = None.
Proof.
  induction fuel as [|f IH]; intros n acc chain dflt H; cbn [follow_f] in H.
  - destruct (read n) eqn:E; [discriminate|]. inversion H; subst. rewrite last_last. exact E.
  - destruct (read n) as [[h|t]|] eqn:E.
    + discriminate.
    + eapply IH; eauto.
    + inversion H; subst. rewrite last_last. exact E.
Qed.

(* the name add_if_new writes is the one n resolves to *)
Lemma add_if_new_spec d n v d' r : add_if_new d n v = (d', r) ->
  match r with
  | RTrue => dread d (realname d n) = None /\ forall q, dread d' q = upd d (realname d n) (Some (Sha v)) q
  | _ => d' = d
  end.
Proof.
  unfold add_if_new, realname. destruct (follow (dread d) n) as [[chain [h|]]|] eqn:Ef; try (intros H; inversion H; subst; reflexivity).
  cbv zeta. set (real := last_or chain n).
  destruct (pre_collide real d); [intros H; inversion H; subst; reflexivity|].
  destruct (_ || _); intros H; inversion H; subst; [reflexivity|].
  split; [exact (follow_f_none _ _ _ _ _ n Ef)|apply dread_write].
Qed.

(* non-vacuity: a loose value over a stale packed one, packed, then deleted *)
Example ex_refs :
  let a := [97] in let h1 := [49] in let h2 := [50] in
  let d0 := {| loose := [(a, Sha h2)]; packed := [(a, Sha h1)] |} in
  dread d0 a = Some (Sha h2) /\
  dread (pack_refs d0 true) a = Some (Sha h2) /\
  snd (remove_if_equals d0 a (Some h1)) = RFalse /\
  dread (fst (remove_if_equals d0 a (Some h2))) a = None.
Proof. vm_compute. repeat split; reflexivity. Qed.
