(* Props/C02.v — pack entry headers and pack index lookup. *)
From DV Require Import DeltaP IndexP PackIdx PackIdxP.

(* type and size of a pack entry, for all seven types and every size *)
Theorem obj_header_roundtrip : forall t size r,
  1 <= t <= 7 -> 0 <= size -> dec_obj_header (obj_header t size ++ r) = Some (t, size, r).
Proof.
  intros t size r Ht Hs. unfold obj_header, dec_obj_header.
  destruct (size / 16 =? 0) eqn:E; cbn [app].
  - replace (t * 16 + size mod 16 <? 128) with true by lia. f_equal. f_equal. f_equal; lia.
  - replace (t * 16 + size mod 16 + 128 <? 128) with false by lia.
    rewrite hdr_py_enc_size by lia. f_equal. f_equal. f_equal; lia.
Qed.
Print Assumptions obj_header_roundtrip.

(* OFS_DELTA base offsets: every positive offset round-trips (zero is refused) *)
Theorem ofs_roundtrip : forall n r, 0 < n -> dec_ofs (gv_enc n ++ r) = Some (Some n, r).
Proof.
  intros n r Hn. unfold dec_ofs. rewrite gv_dec_enc by lia. replace (n =? 0) with false by lia. reflexivity.
Qed.
Print Assumptions ofs_roundtrip.

(* random access through the fan-out table and the bisection: a name is found,
   at its own position, exactly when the (sorted) table contains it *)
Theorem idx_lookup_exact : forall names sha,
  wf_names names -> sorted_names names ->
  forall i, idx_lookup names sha = Some i <-> 0 <= i < zlen names /\ name_at names i = sha.
Proof.
  intros names sha Hw. apply idx_lookup_spec. eapply Forall_impl; [|exact Hw]. intros n [Hn _]. exact Hn.
Qed.
Print Assumptions idx_lookup_exact.

Theorem absent_name_not_found : forall names sha,
  wf_names names -> sorted_names names -> ~ In sha names -> idx_lookup names sha = None.
Proof.
  intros names sha Hw Hs Hnot. destruct (idx_lookup names sha) as [i|] eqn:E; [|reflexivity].
  apply (idx_lookup_exact names sha Hw Hs) in E. destruct E as [Hi Hn]. exfalso. apply Hnot.
  rewrite <- Hn. unfold name_at. apply nth_In. unfold zlen in Hi. lia.
Qed.
Print Assumptions absent_name_not_found.

(* 31-bit inline offsets and the 64-bit table: every offset reads back *)
Theorem offset_tables_roundtrip : forall offs large,
  Forall (fun o => 0 <= o) offs -> zlen large < 2147483648 - zlen offs ->
  let '(t, l) := enc_offsets offs large in
  zlen t = zlen offs /\ (exists ext, l = large ++ ext) /\
  forall i, 0 <= i < zlen offs -> dec_offset t l i = nth (Z.to_nat i) offs 0.
Proof. intros offs large _ _. apply enc_offsets_spec. Qed.
Print Assumptions offset_tables_roundtrip.
