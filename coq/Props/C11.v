(* Props/C11.v — staging index file. *)
From DV Require Import Index IndexP.

(* git's offset varint (index v4 prefix counts): every n >= 0 round-trips *)
Theorem varint_roundtrip : forall n r, 0 <= n -> gv_dec (gv_enc n ++ r) = Some (n, r).
Proof. exact gv_dec_enc. Qed.
Print Assumptions varint_roundtrip.

(* v4 path prefix compression against any previous path *)
Theorem path_compress_roundtrip : forall path prev rest,
  nul_free path -> decompress_path (compress_path path prev ++ rest) prev = Some (path, rest).
Proof. exact decompress_compress. Qed.
Print Assumptions path_compress_roundtrip.

(* one entry, versions 2, 3 and 4, names of any length (the 12-bit length field
   saturates), every flag combination; dev/ino/size come back modulo 2^32 *)
Theorem entry_roundtrip : forall v prev e b rest,
  wf_entry e -> 2 <= v <= 4 ->
  write_entry v prev e = Some b ->
  read_entry v prev (b ++ rest) = Some (norm e, rest).
Proof. intros v prev e b rest W _. apply entry_roundtrip_any_version, W. Qed.
Print Assumptions entry_roundtrip.

(* a whole file (header, any number of entries, v4 chaining, version bump for
   extended flags), followed by anything (extensions, trailer) *)
Theorem index_roundtrip : forall v es b rest,
  2 <= v <= 4 -> Forall wf_entry es -> zlen es < 4294967296 ->
  write_index v es = Some b ->
  read_index (b ++ rest) = Some (effective_version v es, map norm es, rest).
Proof. intros v es b rest Hv. apply index_roundtrip_any_version. lia. Qed.
Print Assumptions index_roundtrip.
