(* Proofs/PackedFileP.v — what write_packed_refs writes, get_packed_refs reads back. *)
From DV Require Import PackedFile.
From DV Require Sep.

(* rstrip and rstrip_crlf are both [rev (drop_while f (rev l))]: a tail of bytes of the class goes, and
   nothing more once the last byte is outside the class *)
Lemma rtrim_app f l t : ends (fun x => f x = false) l -> forallb f t = true ->
  rev (drop_while f (rev (l ++ t))) = l.
Proof.
  intros (a & x & -> & H). induction t as [|y t IH] using rev_ind; intros F.
  - rewrite app_nil_r, rev_unit. cbn [drop_while]. rewrite H, <- rev_unit. apply rev_involutive.
  - rewrite forallb_app in F. apply andb_prop in F. destruct F as [F Y]. cbn in Y. rewrite andb_true_r in Y.
    rewrite app_assoc, rev_unit. cbn [drop_while]. rewrite Y. apply IH, F.
Qed.

(* split_sp_f is Sep.split SP and split_lines_f is Sep.lines LF, by conversion *)
Lemma split_sp_app a rest : ~ In SP a -> split_sp (a ++ SP :: rest) = a :: split_sp rest.
Proof. exact (Sep.split_cons SP a rest []). Qed.

Lemma split_sp_none a : ~ In SP a -> split_sp a = [a].
Proof. exact (Sep.split_last SP a []). Qed.

Lemma split_lines_concat ls : Forall (Sep.is_line LF) ls -> split_lines (concat ls) = ls.
Proof. intros F. unfold split_lines. rewrite <- (app_nil_r (concat ls)), (Sep.lines_of_lines LF) by exact F. apply app_nil_r. Qed.

(* a field of the automaton's state that only records whether some byte so far hit a test *)
Lemma flag_fold (flag : dstate -> bool) (hit : Z -> bool) :
  (forall s b, flag (d_step s b) = flag s || hit b) ->
  forall l s, flag (fold_left d_step l s) = flag s || existsb hit l.
Proof.
  intros step. induction l as [|b l IH]; intros s; cbn [fold_left existsb]; [rewrite orb_false_r; reflexivity|].
  rewrite IH, step, orb_assoc. reflexivity.
Qed.
Lemma badc_fold : forall l s, d_badc (fold_left d_step l s) = d_badc s || existsb d_bad l.
Proof. apply flag_fold. reflexivity. Qed.
Lemma slash_fold : forall l s, d_slash (fold_left d_step l s) = d_slash s || existsb (fun b => b =? SLASH) l.
Proof. apply flag_fold. reflexivity. Qed.

(* of the eight conditions of d_accept only that no bad byte was seen; the empty name is refused outright *)
Lemma name_clean n : check_ref_format n = true -> (forall b, In b n -> d_bad b = false) /\ n <> [].
Proof.
  intros H. split; [|intros ->; discriminate H].
  unfold check_ref_format, d_accept in H. do 4 (apply andb_prop in H; destruct H as [H _]).
  apply andb_prop in H. destruct H as [_ B]. rewrite badc_fold in B. apply negb_true_iff in B. apply existsb_false, B.
Qed.

Lemma name_notin n c : check_ref_format n = true -> d_bad c = true -> ~ In c n.
Proof. intros H B I. apply (name_clean n H) in I. congruence. Qed.

Lemma sha_bytes s : valid_hexsha s = true -> forallb is_hex s = true /\ s <> [].
Proof.
  unfold valid_hexsha. intros H. apply andb_prop in H. destruct H as [L F]. split; [exact F|].
  intros ->. discriminate.
Qed.
Lemma sha_notin s c : valid_hexsha s = true -> is_hex c = false -> ~ In c s.
Proof. intros H. apply forallb_notin, sha_bytes, H. Qed.

(* "<sha> <name>" holds no control byte: the packed-refs reader cuts it at LF, the wire reader at NUL *)
Lemma sha_name_notin s n c : valid_hexsha s = true -> check_ref_format n = true ->
  is_hex c = false -> d_bad c = true -> c <> SP -> ~ In c (s ++ [SP] ++ n).
Proof.
  intros Hs Hn X B N. rewrite !in_app_iff.
  intros [I|[[E|[]]|I]]; [exact (sha_notin s c Hs X I)|exact (N (eq_sym E))|exact (name_notin n c Hn B I)].
Qed.

Definition sep (b : Z) : bool := (b =? SP) || (b =? LF) || (b =? CR).
Definition nosep (l : bytes) : Prop := Forall (fun b => sep b = false) l.
Lemma nosep_app a b : nosep a -> nosep b -> nosep (a ++ b).
Proof. intros. apply Forall_app. auto. Qed.

Definition ref_text (r : pref) : bytes := p_sha r ++ [SP] ++ p_name r.
Definition all_valid (l : list pref) : Prop := Forall (fun r => valid_pref r = true) l.

Lemma pref_ext r p : p_peeled r = p -> {| p_name := p_name r; p_sha := p_sha r; p_peeled := p |} = r.
Proof. intros <-. destruct r; reflexivity. Qed.

Lemma not_crlf_hex b : is_hex b = true -> is_crlf b = false.
Proof. unfold is_hex, is_crlf, LF, CR. lia. Qed.

Section OneRef.
  Variable r : pref.
  Hypothesis V : valid_pref r = true.

  Lemma v_sha : valid_hexsha (p_sha r) = true.
  Proof. unfold valid_pref in V. rewrite !andb_true_iff in V. tauto. Qed.
  Lemma v_name : check_ref_format (p_name r) = true.
  Proof. unfold valid_pref in V. rewrite !andb_true_iff in V. tauto. Qed.
  Lemma v_peeled q : p_peeled r = Some q -> valid_hexsha q = true.
  Proof. intros E. unfold valid_pref in V. rewrite E, !andb_true_iff in V. tauto. Qed.

  (* the name ends the line, and its last byte is in none of the classes that get trimmed *)
  Lemma ref_text_rtrim f t : (forall b, d_bad b = false -> f b = false) -> forallb f t = true ->
    rev (drop_while f (rev (ref_text r ++ t))) = ref_text r.
  Proof.
    intros B. destruct (name_clean _ v_name) as [C NE]. apply rtrim_app. do 2 apply ends_app. apply ends_all; [exact NE|].
    intros x I. apply B, C, I.
  Qed.
  Lemma ref_text_rstrip t : forallb is_crlf t = true -> rstrip_crlf (ref_text r ++ t) = ref_text r.
  Proof. apply ref_text_rtrim. intros b. unfold d_bad, is_crlf, LF, CR. lia. Qed.

  Lemma ref_text_split t : forallb is_crlf t = true -> split_ref_line (ref_text r ++ t) = Some (p_sha r, p_name r).
  Proof.
    intros T. unfold split_ref_line. rewrite ref_text_rstrip by exact T. unfold ref_text. cbn [app].
    rewrite split_sp_app, split_sp_none, v_sha, v_name; [reflexivity| |].
    - apply name_notin; [exact v_name|reflexivity].
    - apply sha_notin; [exact v_sha|reflexivity].
  Qed.

  Lemma ref_text_head : exists x t, ref_text r = x :: t /\ is_hex x = true.
  Proof.
    destruct (sha_bytes _ v_sha) as [F NE]. unfold ref_text. destruct (p_sha r) as [|x t]; [contradiction|].
    exists x, (t ++ [SP] ++ p_name r). cbn in F. apply andb_prop in F. tauto.
  Qed.

  Lemma ref_text_no_lf : ~ In LF (ref_text r).
  Proof. apply sha_name_notin; [exact v_sha|exact v_name|reflexivity|reflexivity|discriminate]. Qed.
End OneRef.

Lemma peeled_line q : valid_hexsha q = true ->
  rstrip_crlf (CARET :: q ++ [LF]) = CARET :: q /\ ~ In LF (CARET :: q).
Proof.
  intros H. destruct (sha_bytes _ H) as [F NE]. split.
  - apply (rtrim_app is_crlf (CARET :: q) [LF]); [|reflexivity]. apply (ends_app _ [CARET]), ends_all; [exact NE|].
    intros x I. rewrite forallb_forall in F. apply not_crlf_hex, F, I.
  - intros [E|I]; [discriminate|]. revert I. apply sha_notin; [exact H|reflexivity].
Qed.

Definition tail_lines (r : pref) : list bytes := match p_peeled r with Some q => [CARET :: q ++ [LF]] | None => [] end.
Lemma ref_lines_true r : ref_lines true r = (ref_text r ++ [LF]) :: tail_lines r.
Proof. unfold ref_lines, tail_lines, ref_text. rewrite <- !app_assoc. destruct (p_peeled r); reflexivity. Qed.
Lemma ref_lines_false r : ref_lines false r = [ref_text r ++ [LF]].
Proof. unfold ref_lines, ref_text. rewrite <- !app_assoc. destruct (p_peeled r); reflexivity. Qed.

(* read_peeled keeps one ref line pending, since a peeled line may follow it; these name what it does with
   the pending line, which the model spells out in place *)
Definition emit_pending (last : bytes) (p : option bytes) (k : option (list pref)) : option (list pref) :=
  match split_ref_line last with
  | Some (s, n) => option_map (cons {| p_name := n; p_sha := s; p_peeled := p |}) k
  | None => None
  end.
Definition flush_pending (last : bytes) (k : option (list pref)) : option (list pref) :=
  match last with [] => k | _ => emit_pending last None k end.

Lemma hex_neq x c : is_hex x = true -> is_hex c = false -> (x =? c) = false.
Proof. intros X C. apply Z.eqb_neq. intros ->. congruence. Qed.

Lemma read_ref_line r rest last : valid_pref r = true ->
  read_peeled ((ref_text r ++ [LF]) :: rest) last = flush_pending last (read_peeled rest (ref_text r)).
Proof.
  intros V. cbn [read_peeled]. rewrite (ref_text_rstrip r V [LF] eq_refl).
  destruct (ref_text_head r V) as (x & t & -> & X). cbn [app starts].
  rewrite !(hex_neq x) by (exact X || reflexivity). reflexivity.
Qed.

Lemma read_peeled_line q rest last : valid_hexsha q = true -> last <> [] ->
  read_peeled ((CARET :: q ++ [LF]) :: rest) last = emit_pending last (Some q) (read_peeled rest []).
Proof.
  intros Q NE. cbn [read_peeled]. rewrite (proj1 (peeled_line q Q)). cbn [app starts tl]. rewrite Z.eqb_refl, Q.
  destruct last; [contradiction|reflexivity].
Qed.

Lemma emit_pending_ref_text r k : valid_pref r = true -> emit_pending (ref_text r) (p_peeled r) k = option_map (cons r) k.
Proof.
  intros V. unfold emit_pending. rewrite <- (app_nil_r (ref_text r)), (ref_text_split r V [] eq_refl), (pref_ext r _ eq_refl).
  reflexivity.
Qed.

(* with any line pending in front; r's own line is emitted by r's peeled line or by the flush that the
   next ref line, or the end, causes: with its peeled value either way *)
Lemma read_peeled_all : forall l last, all_valid l ->
  read_peeled (flat_map (ref_lines true) l) last = flush_pending last (Some l).
Proof.
  induction l as [|r l IH]; intros last AV; [destruct last; reflexivity|]. inversion AV as [|? ? V AV']; subst.
  cbn [flat_map]. rewrite ref_lines_true. cbn [app]. rewrite read_ref_line by exact V. f_equal.
  etransitivity; [|exact (emit_pending_ref_text r (Some l) V)]. destruct (ref_text_head r V) as (x & t & C & _).
  unfold tail_lines. destruct (p_peeled r) as [q|] eqn:P; cbn [app].
  - rewrite read_peeled_line, IH; [reflexivity|exact AV'|exact (v_peeled r V q P)|rewrite C; discriminate].
  - rewrite IH by exact AV'. rewrite C. reflexivity.
Qed.

Lemma lines_are_lines b l : all_valid l -> Forall (Sep.is_line LF) (flat_map (ref_lines b) l).
Proof.
  intros AV. apply Forall_flat_map. revert AV. apply Forall_impl. intros r V.
  assert (L : Sep.is_line LF (ref_text r ++ [LF])) by (exists (ref_text r); split; [reflexivity|apply ref_text_no_lf, V]).
  destruct b; [rewrite ref_lines_true|rewrite ref_lines_false]; constructor; try exact L; [|constructor].
  unfold tail_lines. destruct (p_peeled r) as [q|] eqn:P; constructor; [|constructor].
  exists (CARET :: q). split; [reflexivity|]. apply peeled_line, (v_peeled r V q P).
Qed.

Lemma roundtrip_peeled l : all_valid l -> read_packed (write_packed true l) = Some l.
Proof.
  intros AV. unfold read_packed, write_packed. change (split_lines (HEADER ++ ?x)) with (HEADER :: split_lines x).
  replace (is_prefix_b PACKREFS (rstrip HEADER) && contains SP_PEELED (rstrip HEADER)) with true by (vm_compute; reflexivity).
  rewrite split_lines_concat by (apply lines_are_lines; exact AV). exact (read_peeled_all l [] AV).
Qed.

Lemma read_plain_all : forall l, all_valid l -> read_plain (flat_map (ref_lines false) l) = Some (map drop_peeled l).
Proof.
  induction l as [|r l IH]; intros AV; [reflexivity|]. inversion AV as [|? ? V AV']; subst.
  cbn [flat_map map]. rewrite ref_lines_false. cbn [app read_plain].
  rewrite (ref_text_split r V [LF] eq_refl), (IH AV'). destruct (ref_text_head r V) as (x & t & -> & X). cbn [app starts].
  rewrite !(hex_neq x) by (exact X || reflexivity). reflexivity.
Qed.

(* written without peeled values there is no header: the first line is a ref line, which selects read_plain *)
Lemma roundtrip_plain l : all_valid l -> l <> [] -> read_packed (write_packed false l) = Some (map drop_peeled l).
Proof.
  intros AV NE. unfold read_packed, write_packed. cbn [app].
  rewrite split_lines_concat by (apply lines_are_lines; exact AV). rewrite <- (read_plain_all l AV).
  destruct AV as [|r l V _]; [contradiction|]. cbn [flat_map]. rewrite ref_lines_false. cbn [app].
  unfold rstrip. rewrite (ref_text_rtrim r V is_space [LF]); [|unfold d_bad, is_space; lia|reflexivity].
  destruct (ref_text_head r V) as (x & t & -> & X). cbn [is_prefix_b PACKREFS]. rewrite Z.eqb_sym, (hex_neq x); auto.
Qed.
