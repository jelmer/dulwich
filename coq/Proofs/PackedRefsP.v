(* Proofs/PackedRefsP.v — pack_refs never changes the value of a ref; updates stay compare-and-swap *)
From DV Require Import ListFacts PackedRefs Lock.

(* the value a packer carries: read and not yet pruned (reg), about to be pruned (pruner);
   a writer whose new value is not in the loose file yet (unwritten) *)
Definition pruner (p : pc) : option nat := match p with PkPruneLock v | PkPrune v => Some v | _ => None end.
Definition reg (p : pc) : option nat := match p with PkWrite v | PkPruneLock v | PkPrune v => Some v | _ => None end.
Definition unwritten (p : pc) : bool := match p with PStart | SCheck | SWrite => true | _ => false end.
(* the program counters an operation of kind k passes through.  A deletion has none, not even the first:
   the invariant is of runs without one *)
Definition wf_pc (k : kind) (p : pc) : bool :=
  match p with
  | PStart => negb (is_del k)
  | PEnd _ | PUnlock _ => true
  | PkRead | PkWrite _ | PkPruneLock _ | PkPrune _ => match k with KPack => true | _ => false end
  | SCheck | SWrite => match k with KCas _ _ | KSet _ => true | _ => false end
  | DCheck | DPacked | DRewrite | DLoose => false
  end.

(* what [visible] is of a state with loose file l and packed entry k *)
Definition vis (l k : option nat) : option nat := match l with Some v => Some v | None => k end.

(* What the actors f know of the loose file l and the packed entry k; the locks do not come into it.
   V_write: a packer is about to write v, the value it read.  If the ref has a newer value by now, that is in the
   loose file and differs from the entry in packed-refs; where the entry is what a reader finds, it is v already.
   V_prune: a loose file about to be pruned has its value in packed-refs.  So neither step changes the visible value.
   F_files, F_reg: a value still to be written is nowhere yet, in neither file and with no packer.
   C_swrite: a writer about to write has found its condition true of the visible value *)
Record Vals (l k : option nat) (f : nat -> actor) : Prop := {
  V_write : forall j v, a_pc (f j) = PkWrite v -> vis l k = k -> k = Some v;
  V_prune : forall j v, pruner (a_pc (f j)) = Some v -> l = Some v -> k = Some v;
  F_files : forall j n, newval (a_kind (f j)) = Some n -> unwritten (a_pc (f j)) = true -> l <> Some n /\ k <> Some n;
  F_reg : forall j j' n, newval (a_kind (f j)) = Some n -> unwritten (a_pc (f j)) = true -> reg (a_pc (f j')) <> Some n;
  C_swrite : forall j, a_pc (f j) = SWrite -> cond (a_kind (f j)) (vis l k) = true
}.

(* every actor is at a pc of its kind's program; no two writers bring the same new value; each lock is held by
   the one actor whose pc says so, or by none; and what the actors know of the two files is true *)
Record packed_inv (s : state) : Prop := {
  pr_wf : forall j, wf_pc (a_kind (acts s j)) (a_pc (acts s j)) = true;
  pr_dist : forall j k n, newval (a_kind (acts s j)) = Some n -> newval (a_kind (acts s k)) = Some n -> j = k;
  pr_rlock : owned_by (rlock s) (fun j => holds_rlock (a_pc (acts s j)));
  pr_plock : owned_by (plock s) (fun j => holds_plock (a_pc (acts s j)));
  pr_vals : Vals (loose s) (packed s) (acts s)
}.

Lemma at_pc_kind s i p j : a_kind (at_pc s i p j) = a_kind (acts s j).
Proof. unfold at_pc, upd. destruct (Nat.eqb_spec j i) as [->|]; reflexivity. Qed.
Lemma at_pc_cases s i p j :
  (j = i /\ a_pc (at_pc s i p j) = p) \/ (j <> i /\ a_pc (at_pc s i p j) = a_pc (acts s j)).
Proof. unfold at_pc, upd. destruct (Nat.eqb_spec j i); auto. Qed.

Lemma at_pc_elim (P : pc -> Prop) s i p' j : P (a_pc (at_pc s i p' j)) -> ~ P p' -> j <> i /\ P (a_pc (acts s j)).
Proof. intros H N. destruct (at_pc_cases s i p' j) as [[_ A]|[X A]]; rewrite A in H; [destruct (N H)|auto]. Qed.

(* the state after actor i has moved to p', with these files and locks *)
Definition moved (s : state) (i : nat) (p' : pc) (l' k' r' q' : option nat) : state :=
  {| loose := l'; packed := k'; rlock := r'; plock := q'; acts := at_pc s i p' |}.

Lemma visible_cases s : (loose s = None /\ visible s = packed s) \/ (exists v, loose s = Some v /\ visible s = Some v).
Proof. unfold visible. destruct (loose s); [right; eauto|left; auto]. Qed.

Lemma pruner_reg p v : pruner p = Some v -> reg p = Some v.
Proof. destruct p; cbn; congruence. Qed.

(* p' says of its actor (of kind k) nothing that p did not, except what follows from cur being the visible
   value and pk the entry in packed-refs: a packer may take up cur, a writer may have found its condition true
   of it, and pk may be pruned *)
Record pc_le (k : kind) (cur pk : option nat) (p' p : pc) : Prop := {
  le_write : forall v, p' = PkWrite v -> p = PkWrite v \/ cur = Some v;
  le_pruner : forall v, pruner p' = Some v -> pruner p = Some v \/ pk = Some v;
  le_reg : forall v, reg p' = Some v -> reg p = Some v \/ cur = Some v;
  le_unwritten : unwritten p' = true -> unwritten p = true;
  le_swrite : p' = SWrite -> p = SWrite \/ cond k cur = true
}.

Lemma pc_le_inert k cur pk p' p : reg p' = None -> unwritten p' = false -> pc_le k cur pk p' p.
Proof.
  intros R U. constructor; try congruence.
  - intros v ->. discriminate R.
  - intros v H. apply pruner_reg in H. congruence.
  - intros ->. discriminate U.
Qed.

Lemma vals_move s i p' l k : Vals l k (acts s) -> pc_le (a_kind (acts s i)) (vis l k) k p' (a_pc (acts s i)) ->
  Vals l k (at_pc s i p').
Proof.
  intros [V1 V2 Fl Fr Cw] LE.
  assert (A : forall j, pc_le (a_kind (acts s j)) (vis l k) k (a_pc (at_pc s i p' j)) (a_pc (acts s j))).
  { intros j. destruct (at_pc_cases s i p' j) as [[-> ->]|[_ ->]]; [exact LE|constructor; auto]. }
  constructor.
  - intros j v H X. destruct (le_write _ _ _ _ _ (A j) v H) as [Y|Y]; [exact (V1 j v Y X)|].
    rewrite <- X. exact Y.
  - intros j v H L. destruct (le_pruner _ _ _ _ _ (A j) v H) as [Y|Y]; [exact (V2 j v Y L)|exact Y].
  - intros j n. rewrite at_pc_kind. intros H U. apply (Fl j n H). apply (le_unwritten _ _ _ _ _ (A j)). exact U.
  - intros j j' n. rewrite at_pc_kind. intros H U R. apply (le_unwritten _ _ _ _ _ (A j)) in U.
    destruct (le_reg _ _ _ _ _ (A j') n R) as [X|X]; [exact (Fr j j' n H U X)|].
    destruct (Fl j n H U) as [NL NP]. unfold vis in X. destruct l; congruence.
  - intros j. rewrite at_pc_kind. intros H.
    destruct (le_swrite _ _ _ _ _ (A j) H) as [X|X]; [exact (Cw j X)|exact X].
Qed.

(* packed-refs is rewritten with v, and below the loose file is removed while packed-refs holds its value:
   the value of the ref stays, and so does what the actors know, before the one that did it moves on *)
Lemma vals_pkwrite s i v : packed_inv s -> a_pc (acts s i) = PkWrite v ->
  Vals (loose s) (Some v) (acts s) /\ vis (loose s) (Some v) = visible s.
Proof.
  intros I E. destruct (pr_vals _ I) as [V1 V2 Fl Fr Cw].
  assert (X : vis (loose s) (Some v) = visible s).
  { pose proof (V1 i v E) as X. unfold visible, vis in *. destruct (loose s); [reflexivity|]. symmetry. exact (X eq_refl). }
  split; [|exact X]. constructor.
  - (* packed-refs.lock: nobody else is writing *)
    intros j w H _. assert (j = i) as -> by (apply (owner_unique _ _ j i (pr_plock _ I)); [rewrite H|rewrite E]; reflexivity).
    congruence.
  - (* packed-refs holds w, the value a reader finds: it is the one i read *)
    intros j w H L. pose proof (V2 j w H L) as Q. rewrite <- Q. symmetry. apply (V1 i v E). unfold vis. rewrite L. symmetry. exact Q.
  - intros j n H U. split; [apply (Fl j n H U)|]. intros Y. injection Y as ->. apply (Fr j i n H U). rewrite E. reflexivity.
  - exact Fr.
  - intros j H. rewrite X. exact (Cw j H).
Qed.

Lemma vals_prune s i v : Vals (loose s) (packed s) (acts s) -> pruner (a_pc (acts s i)) = Some v -> loose s = Some v ->
  Vals None (packed s) (acts s) /\ vis None (packed s) = visible s.
Proof.
  intros V P L. pose proof (V_prune _ _ _ V i v P L) as K.
  assert (X : vis None (packed s) = visible s) by (unfold visible; rewrite L; exact K).
  split; [|exact X]. constructor; try discriminate.
  - intros j w H _. apply (V_write _ _ _ V j w H). unfold vis. rewrite L. symmetry. exact K.
  - intros j n H U. split; [discriminate|apply (F_files _ _ _ V j n H U)].
  - apply (F_reg _ _ _ V).
  - intros j H. rewrite X. exact (C_swrite _ _ _ V j H).
Qed.

Lemma vals_swrite s i n : packed_inv s -> a_pc (acts s i) = SWrite -> newval (a_kind (acts s i)) = Some n ->
  Vals (Some n) (packed s) (at_pc s i (PEnd RTrue)).
Proof.
  intros I E NV. destruct (pr_vals _ I) as [V1 V2 Fl Fr Cw].
  assert (U : unwritten (a_pc (acts s i)) = true) by (rewrite E; reflexivity).
  (* n is new: no packer carries it *)
  assert (P : forall j, pruner (a_pc (at_pc s i (PEnd RTrue) j)) <> Some n).
  { intros j H. apply at_pc_elim in H as [_ H]; [|discriminate]. exact (Fr i j n NV U (pruner_reg _ _ H)). }
  constructor.
  - intros j w _ X. destruct (Fl i n NV U) as [_ NP]. destruct NP. symmetry. exact X.
  - intros j w H X. injection X as <-. destruct (P j H).
  - intros j m. rewrite at_pc_kind. intros H Uj. apply at_pc_elim in Uj as [N Uj]; [|discriminate].
    split; [|apply (Fl j m H Uj)]. intros X. injection X as <-. exact (N (pr_dist _ I j i n H NV)).
  - intros j k m. rewrite at_pc_kind. intros H Uj R.
    apply at_pc_elim in Uj as [_ Uj]; [|discriminate]. apply at_pc_elim in R as [_ R]; [|discriminate].
    exact (Fr j k m H Uj R).
  - (* the ref lock: nobody else is about to write *)
    intros j. rewrite at_pc_kind. intros H. apply at_pc_elim in H as [N H]; [|discriminate].
    destruct N. apply (owner_unique _ _ j i (pr_rlock _ I)); [rewrite H|rewrite E]; reflexivity.
Qed.

Lemma inv_at s i p p' l' k' r' q' : packed_inv s -> a_pc (acts s i) = p -> wf_pc (a_kind (acts s i)) p' = true ->
  lock_move i (rlock s) (holds_rlock p) r' (holds_rlock p') ->
  lock_move i (plock s) (holds_plock p) q' (holds_plock p') ->
  Vals l' k' (at_pc s i p') ->
  packed_inv (moved s i p' l' k' r' q').
Proof.
  intros [W D R P _] <- Wf MR MP Vl.
  constructor; cbn [moved rlock plock acts]; [..|exact Vl].
  - intros j. rewrite at_pc_kind. destruct (at_pc_cases s i p' j) as [[-> ->]|[_ ->]]; [exact Wf|apply W].
  - intros j k n. rewrite !at_pc_kind. apply D.
  - apply (owned_by_upd (fun a => holds_rlock (a_pc a)) _ _ _ _ _ R). exact MR.
  - apply (owned_by_upd (fun a => holds_plock (a_pc a)) _ _ _ _ _ P). exact MP.
Qed.

(* every step but a writer's write: the files may change, with the actors as they are, as long as the value
   of the ref stays; then actor i moves *)
Lemma inv_quiet s i p p' l' k' r' q' : packed_inv s -> a_pc (acts s i) = p -> wf_pc (a_kind (acts s i)) p' = true ->
  Vals l' k' (acts s) /\ vis l' k' = visible s ->
  pc_le (a_kind (acts s i)) (visible s) k' p' p ->
  lock_move i (rlock s) (holds_rlock p) r' (holds_rlock p') ->
  lock_move i (plock s) (holds_plock p) q' (holds_plock p') ->
  let s' := moved s i p' l' k' r' q' in packed_inv s' /\ visible s' = visible s.
Proof.
  intros I E Wf [V X] LE MR MP. split; [|exact X]. apply (inv_at s i p); try assumption.
  apply vals_move; [exact V|rewrite X, E; exact LE].
Qed.

Lemma inv_move s i p p' r' q' : packed_inv s -> a_pc (acts s i) = p -> wf_pc (a_kind (acts s i)) p' = true ->
  pc_le (a_kind (acts s i)) (visible s) (packed s) p' p ->
  lock_move i (rlock s) (holds_rlock p) r' (holds_rlock p') ->
  lock_move i (plock s) (holds_plock p) q' (holds_plock p') ->
  let s' := moved s i p' (loose s) (packed s) r' q' in packed_inv s' /\ visible s' = visible s.
Proof. intros I E Wf. apply (inv_quiet s i p p' _ _ _ _ I E Wf). split; [apply I|reflexivity]. Qed.

(* the actor stops or goes on to unlock, holding what it held *)
Lemma inv_stop s i p' : packed_inv s -> reg p' = None -> unwritten p' = false -> wf_pc (a_kind (acts s i)) p' = true ->
  holds_rlock p' = holds_rlock (a_pc (acts s i)) -> holds_plock p' = holds_plock (a_pc (acts s i)) ->
  let s' := moved s i p' (loose s) (packed s) (rlock s) (plock s) in packed_inv s' /\ visible s' = visible s.
Proof.
  intros I R U Wf HR HP. apply (inv_move s i _ p' _ _ I eq_refl Wf); [apply pc_le_inert; assumption|..].
  - rewrite HR. apply lock_kept.
  - rewrite HP. apply lock_kept.
Qed.

Lemma step_quiet s i : packed_inv s -> a_pc (acts s i) <> SWrite -> packed_inv (step s i) /\ visible (step s i) = visible s.
Proof.
  intros I NW. pose proof (pr_wf _ I i) as WF.
  unfold step. destruct (a_pc (acts s i)) eqn:E; cbn [wf_pc] in WF.
  - (* PStart *) destruct (a_kind (acts s i)) eqn:K.
    + (* KPack *) destruct (plock s) eqn:PL; [rewrite <- PL; apply inv_stop; rewrite ?E; auto|].
      apply (inv_move s i _ PkRead _ _ I E); [rewrite K; reflexivity|apply pc_le_inert; reflexivity|apply lock_kept|rewrite PL; apply lock_taken].
    + (* KCas *) destruct (rlock s) eqn:RL; [rewrite <- RL; apply inv_stop; rewrite ?E; auto|].
      apply (inv_move s i _ SCheck _ _ I E); [rewrite K; reflexivity|constructor; cbn; auto; discriminate|rewrite RL; apply lock_taken|apply lock_kept].
    + (* KSet *) destruct (rlock s) eqn:RL; [rewrite <- RL; apply inv_stop; rewrite ?E; auto|].
      apply (inv_move s i _ SCheck _ _ I E); [rewrite K; reflexivity|constructor; cbn; auto; discriminate|rewrite RL; apply lock_taken|apply lock_kept].
    + (* KDel *) discriminate WF.
    + (* KRead *) apply inv_stop; rewrite ?E; auto.
  - (* PkRead *) destruct (visible s) as [v|] eqn:VI; (split; [|exact VI]).
    + apply (inv_move s i _ (PkWrite v) _ _ I E WF); [|apply lock_kept|apply lock_kept].
      rewrite VI. constructor; cbn; try discriminate; intros w H; right; congruence.
    + apply (inv_move s i _ (PEnd RTrue) _ _ I E); [reflexivity|apply pc_le_inert; reflexivity|apply lock_kept|apply lock_released].
  - (* PkWrite *) apply (inv_quiet s i _ (PkPruneLock v) _ _ _ _ I E WF (vals_pkwrite s i v I E));
      [constructor; cbn; auto; discriminate|apply lock_kept|apply lock_released].
  - (* PkPruneLock *) destruct (rlock s) eqn:RL; [rewrite <- RL; apply inv_stop; rewrite ?E; auto|].
    apply (inv_move s i _ (PkPrune v) _ _ I E WF); [constructor; cbn; auto; discriminate|rewrite RL; apply lock_taken|apply lock_kept].
  - (* PkPrune *) destruct (onat_eqb (loose s) (Some v)) eqn:Q; [|apply inv_stop; rewrite ?E; auto].
    apply onat_eqb_eq in Q. apply (inv_quiet s i _ (PUnlock RTrue) _ _ _ _ I E); [reflexivity| |apply pc_le_inert; reflexivity|apply lock_kept|apply lock_kept].
    apply (vals_prune s i v); [apply I|rewrite E; reflexivity|exact Q].
  - (* SCheck *) destruct (cond (a_kind (acts s i)) (visible s)) eqn:CD; [|apply inv_stop; rewrite ?E; auto].
    apply (inv_move s i _ SWrite _ _ I E WF); [|apply lock_kept|apply lock_kept].
    constructor; cbn; auto; discriminate.
  - (* SWrite *) contradiction.
  - (* DCheck *) discriminate WF.
  - (* DPacked *) discriminate WF.
  - (* DRewrite *) discriminate WF.
  - (* DLoose *) discriminate WF.
  - (* PUnlock *) apply (inv_move s i _ (PEnd r) _ _ I E); [reflexivity|apply pc_le_inert; reflexivity|apply lock_released|apply lock_kept].
  - (* PEnd *) split; [exact I|reflexivity].
Qed.

Lemma step_write s i : packed_inv s -> a_pc (acts s i) = SWrite -> packed_inv (step s i).
Proof.
  intros I E. pose proof (pr_wf _ I i) as WF. unfold step. rewrite E in *. cbn [wf_pc] in WF.
  assert (NV : exists n, newval (a_kind (acts s i)) = Some n) by (destruct (a_kind (acts s i)); try discriminate WF; cbn; eauto).
  destruct NV as [n NV]. rewrite NV.
  apply (inv_at s i _ (PEnd RTrue) _ _ _ _ I E); [reflexivity|apply lock_released|apply lock_kept|]. apply vals_swrite; assumption.
Qed.

Lemma pc_SWrite_dec p : p = SWrite \/ p <> SWrite.
Proof. destruct p; auto; right; discriminate. Qed.

Lemma step_inv s i : packed_inv s -> packed_inv (step s i).
Proof.
  intros I. destruct (pc_SWrite_dec (a_pc (acts s i))) as [E|E]; [apply step_write|apply step_quiet]; assumption.
Qed.

Definition fresh (l0 p0 : option nat) (l : list kind) : Prop :=
  forallb (fun k => negb (is_del k)) l = true /\ NoDup (news l) /\ (forall n, In n (news l) -> l0 <> Some n /\ p0 <> Some n).

Lemma news_nth l i k n : nth_error l i = Some k -> newval k = Some n -> In n (news l).
Proof. intros H N. apply in_flat_map. exists k. rewrite N. split; [exact (nth_error_In l i H)|left; reflexivity]. Qed.

Lemma news_dist : forall l i j ki kj n, NoDup (news l) -> nth_error l i = Some ki -> nth_error l j = Some kj ->
  newval ki = Some n -> newval kj = Some n -> i = j.
Proof.
  induction l as [|k0 l IH]; intros [|i] [|j] ki kj n ND Hi Hj Ni Nj; cbn in Hi, Hj; try discriminate; auto;
    unfold news in ND; cbn [flat_map] in ND; apply NoDup_app_iff in ND; destruct ND as (_ & ND & D).
  - inversion Hi; subst. rewrite Ni in D. destruct (D n (or_introl eq_refl)). eapply news_nth; eauto.
  - inversion Hj; subst. rewrite Nj in D. destruct (D n (or_introl eq_refl)). eapply news_nth; eauto.
  - f_equal. eapply IH; eauto.
Qed.

Lemma init_inv l0 p0 l : fresh l0 p0 l -> packed_inv (init l0 p0 l).
Proof.
  intros (ND & NN & NF).
  assert (P : forall i, (exists k, nth_error l i = Some k /\ acts (init l0 p0 l) i = mk k) \/ acts (init l0 p0 l) i = idle) by (intros i; apply nth_map_cases).
  assert (Q : forall i, a_pc (acts (init l0 p0 l) i) = PStart \/ a_pc (acts (init l0 p0 l) i) = PEnd (RSeen None)).
  { intros i. destruct (P i) as [(k & _ & A)|A]; rewrite A; auto. }
  constructor; [..|constructor]; cbn [loose packed rlock plock].
  - intros j. destruct (P j) as [(k & H & A)|A]; rewrite A; cbn; [|reflexivity].
    rewrite forallb_forall in ND. exact (ND k (nth_error_In l j H)).
  - intros j k n Hj Hk. destruct (P j) as [(kj & H1 & A1)|A1]; rewrite A1 in Hj; cbn in Hj; [|discriminate].
    destruct (P k) as [(kk & H2 & A2)|A2]; rewrite A2 in Hk; cbn in Hk; [|discriminate].
    eapply news_dist; eauto.
  - apply unowned. intros j. destruct (Q j) as [A|A]; rewrite A; reflexivity.
  - apply unowned. intros j. destruct (Q j) as [A|A]; rewrite A; reflexivity.
  - intros j v H. destruct (Q j) as [A|A]; rewrite A in H; discriminate.
  - intros j v H. destruct (Q j) as [A|A]; rewrite A in H; discriminate.
  - intros j n H U. destruct (P j) as [(k & H1 & A)|A]; rewrite A in H; cbn in H; [|discriminate].
    apply NF. eapply news_nth; eauto.
  - intros j k n _ _ H. destruct (Q k) as [A|A]; rewrite A in H; discriminate.
  - intros j H. destruct (Q j) as [A|A]; rewrite A in H; discriminate.
Qed.

Lemma run_inv l0 p0 l sched : fresh l0 p0 l -> packed_inv (run (init l0 p0 l) sched).
Proof. intros F. apply (fold_left_inv step packed_inv); [intros s i _; apply step_inv|exact (init_inv l0 p0 l F)]. Qed.

Lemma change_is_cas s i : packed_inv s -> visible (step s i) <> visible s ->
  a_pc (acts s i) = SWrite /\ rlock s = Some i /\ cond (a_kind (acts s i)) (visible s) = true /\ visible (step s i) = newval (a_kind (acts s i)).
Proof.
  intros I H. destruct (pc_SWrite_dec (a_pc (acts s i))) as [E|E]; [|exfalso; apply H; apply step_quiet; assumption].
  split; [exact E|]. split; [apply (pr_rlock _ I); rewrite E; reflexivity|]. split; [apply (C_swrite _ _ _ (pr_vals _ I)); exact E|].
  pose proof (pr_wf _ I i) as WF. unfold step. rewrite E in *.
  destruct (a_kind (acts s i)); try discriminate; reflexivity.
Qed.
