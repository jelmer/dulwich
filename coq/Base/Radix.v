(* Base/Radix.v — ASCII digit strings in a base b <= 10 ("%o", "%d", str(n)):
   the digit loop and the left-to-right evaluation that the models spell out for
   b = 8 and b = 10, with the base a variable; and the fuel the models compute for their loops
   (S (log2 n) halvings, S (x / k) chunks of k). *)
From DV Require Import Bytes.

(* S (log2 n) rounds of halving, and so of any division by b >= 2, exhaust n *)
Lemma log2_fuel n : 0 <= n -> n < 2 ^ Z.of_nat (S (Z.to_nat (Z.log2 n))).
Proof.
  intros Hn. rewrite Nat2Z.inj_succ, Z2Nat.id by apply Z.log2_nonneg.
  destruct (Z.eq_dec n 0) as [->|Hz]; [reflexivity|]. apply Z.log2_spec. lia.
Qed.

(* S (x / k) rounds that each take up to k exhaust x: one round more than full chunks of k *)
Lemma div_fuel_ok k x : 0 < k -> 0 <= x -> x <= k * Z.of_nat (S (Z.to_nat (x / k))).
Proof.
  intros Hk Hx. rewrite Nat2Z.inj_succ, Z2Nat.id by (apply Z.div_pos; lia).
  pose proof (Z.mul_succ_div_gt x k Hk). lia.
Qed.

Lemma pow2_S f : 2 ^ Z.of_nat (S f) = 2 * 2 ^ Z.of_nat f.
Proof. rewrite Nat2Z.inj_succ, Z.pow_succ_r by lia. reflexivity. Qed.

Section Radix.
Variable b : Z.
Hypothesis b_ge_2 : 2 <= b.

Definition value (l : bytes) (i : Z) : Z := fold_left (fun a c => a * b + (c - 48)) l i.

Fixpoint digits (fuel : nat) (n : Z) (acc : bytes) : bytes :=
  match fuel with
  | O => acc
  | S f => if n <? b then (48 + n) :: acc else digits f (n / b) ((48 + n mod b) :: acc)
  end.

Definition digit (c : Z) : Prop := 48 <= c < 48 + b.

Lemma value_app x y i : value (x ++ y) i = value y (value x i).
Proof. apply fold_left_app. Qed.

Lemma value_zeros k l : value (repeat 48 k ++ l) 0 = value l 0.
Proof.
  rewrite value_app. f_equal. induction k as [|k IH]; [reflexivity|].
  cbn [repeat]. unfold value in *. cbn [fold_left]. exact IH.
Qed.

Lemma digits_acc : forall fuel n acc, digits fuel n acc = digits fuel n [] ++ acc.
Proof.
  induction fuel as [|f IH]; intros n acc; cbn [digits]; [reflexivity|].
  destruct (n <? b); [reflexivity|]. rewrite IH, (IH (n / b) [48 + n mod b]), <- app_assoc. reflexivity.
Qed.

(* with n < 2 ^ fuel the loop never runs dry: the string reads back as n *)
Lemma digits_spec : forall fuel n, 0 <= n < 2 ^ Z.of_nat fuel -> (0 < fuel)%nat ->
  value (digits fuel n []) 0 = n /\ Forall digit (digits fuel n []) /\ digits fuel n [] <> [].
Proof.
  induction fuel as [|f IH]; intros n Hn Hf; [lia|]. cbn [digits].
  destruct (n <? b) eqn:E.
  - unfold value, digit. cbn [fold_left]. repeat split; [lia|constructor; [lia|constructor]|discriminate].
  - rewrite digits_acc. rewrite pow2_S in Hn.
    pose proof (Z.div_mod n b ltac:(lia)) as Hd. pose proof (Z.mod_pos_bound n b ltac:(lia)) as Hm.
    assert (Hq : 0 <= n / b < 2 ^ Z.of_nat f).
    { split; [apply Z.div_pos; lia|]. apply Z.div_lt_upper_bound; [lia|]. nia. }
    assert (Hf0 : (0 < f)%nat) by (destruct f; [change (2 ^ Z.of_nat 0) with 1 in Hq; lia|lia]).
    destruct (IH (n / b) Hq Hf0) as (V & D & _).
    rewrite value_app, V. unfold value, digit. cbn [fold_left]. repeat split.
    + lia.
    + apply Forall_app. split; [exact D|constructor; [lia|constructor]].
    + intros Hnil. apply app_eq_nil in Hnil. destruct Hnil. discriminate.
Qed.

(* d is a spelling of n: what digits_spec establishes *)
Definition spells (d : bytes) (n : Z) : Prop := value d 0 = n /\ Forall digit d /\ d <> [].

Lemma value_shift l : forall i, value l i = i * b ^ Z.of_nat (length l) + value l 0.
Proof.
  induction l as [|c l IH]; intros i; [cbn; lia|].
  unfold value in *. cbn [fold_left length]. rewrite (IH (i * b + (c - 48))), (IH (0 * b + (c - 48))).
  rewrite Nat2Z.inj_succ, Z.pow_succ_r by lia. lia.
Qed.

Lemma spells_app x n y m : spells x n -> spells y m -> spells (x ++ y) (n * b ^ Z.of_nat (length y) + m).
Proof.
  intros (Vx & Dx & Nx) (Vy & Dy & Ny).
  split; [|split; [apply Forall_app; auto|intros E; apply app_eq_nil in E; destruct E; contradiction]].
  rewrite value_app, Vx, value_shift, Vy. reflexivity.
Qed.

End Radix.

(* the fuel Objects.octal and Objects.dec give *)
Lemma digits_log2 b n : 2 <= b -> 0 <= n -> spells b (digits b (S (Z.to_nat (Z.log2 n))) n []) n.
Proof. intros Hb Hn. apply (digits_spec b Hb); [split; [exact Hn|apply log2_fuel; exact Hn]|lia]. Qed.
